(* Lib/Assoc.v -- association lists keyed by N, with update-in-place.  [nget] has the body of Lib.Str.assocN: the two are
   convertible, so the nget_* lemmas apply to assocN as they stand.  The monomorphic copies in Model/ModFile.v (wget, wset,
   tget, tset) are not convertible to nget/nset; Proofs/ModFileProofs.v proves them equal and carries the lemmas over. *)
From MakoV Require Import Lib.Str.
Open Scope N_scope.

Fixpoint nget {A} (i : N) (l : list (N * A)) : option A :=
  match l with [] => None | (j, x) :: r => if i =? j then Some x else nget i r end.
Fixpoint nset {A} (i : N) (x : A) (l : list (N * A)) : list (N * A) :=
  match l with
  | [] => [(i, x)]
  | (j, y) :: r => if i =? j then (i, x) :: r else (j, y) :: nset i x r
  end.

Lemma nget_nset_same {A} i (x : A) l : nget i (nset i x l) = Some x.
Proof.
  induction l as [|[j y] r IH]; cbn [nset nget]; [rewrite N.eqb_refl; reflexivity|].
  destruct (i =? j) eqn:E; cbn [nget]; [rewrite N.eqb_refl; reflexivity|rewrite E; exact IH].
Qed.

Lemma nget_nset_other {A} i j (x : A) l : i <> j -> nget i (nset j x l) = nget i l.
Proof.
  intros H. induction l as [|[k y] r IH]; cbn [nset nget].
  - apply N.eqb_neq in H. rewrite H. reflexivity.
  - destruct (j =? k) eqn:E; cbn [nget].
    + apply N.eqb_eq in E. subst k. apply N.eqb_neq in H. rewrite H. reflexivity.
    + destruct (i =? k); [reflexivity|exact IH].
Qed.

Lemma nget_In {A} i (x : A) l : nget i l = Some x -> In (i, x) l.
Proof.
  induction l as [|[j y] r IH]; cbn [nget]; [discriminate|].
  destruct (N.eqb_spec i j) as [->|Hne]; [intros [= ->]; left; reflexivity|intros H; right; auto].
Qed.

(* for a lookup in a large table: applied to assocN itself, nget_In has the kernel unfold the table to compare the two *)
Lemma assocN_In {A} i (x : A) l : assocN i l = Some x -> In (i, x) l.
Proof. exact (nget_In i x l). Qed.

(* what holds of every binding still does after an update whose new binding has it *)
Lemma nget_nset_all {A} (Q : N -> A -> Prop) i x l :
  (forall j y, nget j l = Some y -> Q j y) -> Q i x ->
  forall j y, nget j (nset i x l) = Some y -> Q j y.
Proof.
  intros H Hi j y Hj. destruct (N.eq_dec j i) as [->|Hne].
  - rewrite nget_nset_same in Hj. injection Hj as <-. exact Hi.
  - rewrite (nget_nset_other j i _ _ Hne) in Hj. apply H. exact Hj.
Qed.
