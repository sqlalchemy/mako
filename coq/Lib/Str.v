(* Lib/Str.v -- text as lists of Unicode code points, shared by every model.
   Definitions and small structural lemmas only; stdlib only. *)
From Coq Require Export List NArith Bool Ascii Lia.
From Coq Require Strings.String.
Export String.StringSyntax.
Export ListNotations.
Open Scope N_scope.

(* an invariant of every step is an invariant of the run: the induction behind the theorems about any
   schedule or operation sequence that is run by fold_left *)
Lemma fold_left_inv {S X} (f : S -> X -> S) (P : S -> Prop) l :
  (forall s x, In x l -> P s -> P (f s x)) -> forall s, P s -> P (fold_left f l s).
Proof.
  induction l as [|x l IH]; intros H s Hs; [exact Hs|].
  apply IH; [intros s' y Hy; apply H; right; exact Hy|apply H; [left; reflexivity|exact Hs]].
Qed.

Lemma forallb_cons {A} (p : A -> bool) x l : forallb p (x :: l) = true -> p x = true /\ forallb p l = true.
Proof. apply andb_prop. Qed.

Notation str := (list N) (only parsing).

(* ASCII literals:  s2l "<%"  =  [60; 37] *)
Fixpoint s2l (s : String.string) : str :=
  match s with
  | String.EmptyString => []
  | String.String a r => N_of_ascii a :: s2l r
  end.
Arguments s2l _%string_scope.

Fixpoint str_eqb (a b : str) : bool :=
  match a, b with
  | [], [] => true
  | x :: a', y :: b' => (x =? y) && str_eqb a' b'
  | _, _ => false
  end.

Lemma str_eqb_eq a b : str_eqb a b = true <-> a = b.
Proof.
  revert b; induction a as [|x a IH]; intros [|y b]; simpl; try (split; congruence).
  rewrite andb_true_iff, N.eqb_eq, IH. split.
  - intros [-> ->]; reflexivity.
  - intros H; inversion H; auto.
Qed.

Lemma str_eqb_refl a : str_eqb a a = true.
Proof. apply str_eqb_eq; reflexivity. Qed.

(* [strip_prefix p s] = Some r  iff  s = p ++ r *)
Fixpoint strip_prefix (p s : str) : option str :=
  match p with
  | [] => Some s
  | x :: p' =>
      match s with
      | y :: s' => if x =? y then strip_prefix p' s' else None
      | [] => None
      end
  end.

Lemma strip_prefix_spec p s r : strip_prefix p s = Some r <-> s = p ++ r.
Proof.
  revert s; induction p as [|x p IH]; intros s; simpl.
  - split; congruence.
  - destruct s as [|y s]; [split; congruence|].
    destruct (N.eqb_spec x y) as [->|Hne].
    + rewrite IH. split; [intros ->; reflexivity | intros H; inversion H; reflexivity].
    + split; [congruence | intros H; inversion H; congruence].
Qed.

Lemma strip_prefix_app p r : strip_prefix p (p ++ r) = Some r.
Proof. apply strip_prefix_spec; reflexivity. Qed.

Definition starts_with (p s : str) : bool :=
  match strip_prefix p s with Some _ => true | None => false end.

Definition memN (c : N) (l : list N) : bool := existsb (N.eqb c) l.

Lemma memN_In c l : memN c l = true <-> In c l.
Proof.
  unfold memN. rewrite existsb_exists. split.
  - intros [x [Hin Heq]]. apply N.eqb_eq in Heq. subst; assumption.
  - intros Hin. exists c. split; [assumption|apply N.eqb_refl].
Qed.

Lemma memN_false c l : memN c l = false <-> ~ In c l.
Proof.
  rewrite <- memN_In. destruct (memN c l); split; congruence.
Qed.

Fixpoint assocN {A} (k : N) (l : list (N * A)) : option A :=
  match l with
  | [] => None
  | (k', v) :: r => if k =? k' then Some v else assocN k r
  end.

Lemma assocN_app {A} k (a b : list (N * A)) :
  assocN k (a ++ b) = match assocN k a with Some v => Some v | None => assocN k b end.
Proof.
  induction a as [|[k' v] a IH]; cbn [app assocN]; [reflexivity|]. destruct (k =? k'); [reflexivity|exact IH].
Qed.

Fixpoint assocS {A} (k : str) (l : list (str * A)) : option A :=
  match l with
  | [] => None
  | (k', v) :: r => if str_eqb k k' then Some v else assocS k r
  end.

(* one step of the lookup as an equation: rewriting with it leaves the kernel nothing to convert, where cbn [assocS] in front of a
   large table r makes Qed unfold the table *)
Lemma assocS_cons {A} k k' (v : A) r : assocS k ((k', v) :: r) = if str_eqb k k' then Some v else assocS k r.
Proof. reflexivity. Qed.

(* sorted, disjoint inclusive ranges as a balanced search tree (emitted by the
   translator for the interpreter's character classes) *)
Inductive rtree :=
| RLeaf
| RNode (l : rtree) (lo hi : N) (r : rtree).

Fixpoint rmem (c : N) (t : rtree) : bool :=
  match t with
  | RLeaf => false
  | RNode l lo hi r =>
      if c <? lo then rmem c l else if hi <? c then rmem c r else true
  end.

(* [rfind c t] = the [lo] of the range containing c *)
Fixpoint rfind (c : N) (t : rtree) : option N :=
  match t with
  | RLeaf => None
  | RNode l lo hi r =>
      if c <? lo then rfind c l else if hi <? c then rfind c r else Some lo
  end.

Definition is_ascii_digit (c : N) : bool := (48 <=? c) && (c <=? 57).
Definition is_ascii_upper (c : N) : bool := (65 <=? c) && (c <=? 90).
Definition is_ascii_lower (c : N) : bool := (97 <=? c) && (c <=? 122).
Definition is_ascii_alnum (c : N) : bool :=
  is_ascii_digit c || is_ascii_upper c || is_ascii_lower c.

Definition hexdigit_upper (d : N) : N := if d <? 10 then 48 + d else 55 + d.

Fixpoint countN (c : N) (s : str) : N :=
  match s with
  | [] => 0
  | x :: r => (if x =? c then 1 else 0) + countN c r
  end.

Lemma countN_app c a b : countN c (a ++ b) = countN c a + countN c b.
Proof. induction a as [|x r IH]; cbn [app countN]; [reflexivity|]. rewrite IH. apply N.add_assoc. Qed.

Definition LF : N := 10.
Definition CR : N := 13.
