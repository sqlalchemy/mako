(* Properties/C07.v -- namespaces and includes reach other templates with the right context and URI *)
From MakoV Require Import Lib.Str Model.Paths Model.Namespace Proofs.NamespaceProofs.
Open Scope N_scope.

Theorem C07_ns_precedence : forall id inline file_defs exports inh key,
  ns_get (NS id inline file_defs exports inh) key =
    if memN key inline then Some (OInline id)
    else if memN key file_defs then Some (OFile id)
    else match inh with Some p => ns_get p key | None => None end.
Proof. exact ns_precedence. Qed.
Print Assumptions C07_ns_precedence.

Theorem C07_inline_wins : forall id inline file_defs exports inh key,
  In key inline -> ns_get (NS id inline file_defs exports inh) key = Some (OInline id).
Proof. exact inline_wins. Qed.
Print Assumptions C07_inline_wins.

Theorem C07_import_before_context : forall imports context builtins x o,
  assocN x imports = Some o -> resolve_imported imports context builtins x = o.
Proof. exact import_before_context. Qed.
Print Assumptions C07_import_before_context.

Theorem C07_context_before_builtin : forall imports context builtins x,
  assocN x imports = None -> In x context -> resolve_imported imports context builtins x = OContext.
Proof. exact context_before_builtin. Qed.
Print Assumptions C07_context_before_builtin.

Theorem C07_star_brings_inline_and_exports : forall id inline file_defs exports inh d k,
  In k inline ->
  exists d', populate (NS id inline file_defs exports inh) [ImpStar] d = Some d' /\ assocN k d' = Some (OInline id).
Proof. exact star_brings_inline_and_exports. Qed.
Print Assumptions C07_star_brings_inline_and_exports.

(* include: for every parameter list, context and args= *)
Theorem C07_include_args_first : forall V params (data kwargs : list (N * V)) k v,
  assocN k kwargs = Some v -> assocN k (kwargs_for_include params data kwargs) = Some v.
Proof. intros V. exact (@include_args_first V). Qed.
Print Assumptions C07_include_args_first.

Theorem C07_include_then_context : forall V params (data kwargs : list (N * V)) k v,
  In k params -> assocN k kwargs = None -> assocN k data = Some v ->
  assocN k (kwargs_for_include params data kwargs) = Some v.
Proof. intros V. exact (@include_then_context V). Qed.
Print Assumptions C07_include_then_context.

Theorem C07_include_passes_only_parameters : forall V params (data kwargs : list (N * V)) k,
  ~ In k params -> assocN k (kwargs_for_include params data kwargs) = assocN k kwargs.
Proof. intros V. exact (@include_passes_only_parameters V). Qed.
Print Assumptions C07_include_passes_only_parameters.

Theorem C07_include_independent : forall V (data : list (N * V)) own,
  assocN tok_self (include_context data own) = Some own /\ assocN tok_local (include_context data own) = Some own /\
  assocN tok_parent (include_context data own) = None /\ assocN tok_next (include_context data own) = None.
Proof. intros V. exact (@include_independent V). Qed.
Print Assumptions C07_include_independent.

Theorem C07_absolute_from_root : forall uri calling_uri, is_abs uri = true -> adjust_uri uri (Some calling_uri) = uri.
Proof. exact absolute_from_root. Qed.
Print Assumptions C07_absolute_from_root.

Theorem C07_relative_to_calling_uri : forall uri calling_uri, is_abs uri = false ->
  adjust_uri uri (Some calling_uri) = join (dirname calling_uri) uri.
Proof. exact relative_to_calling_uri. Qed.
Print Assumptions C07_relative_to_calling_uri.

Example C07_nonvacuous :
  reached (s2l "../shared/h.html") (s2l "/pages/sub/index.html") = s2l "/pages/shared/h.html" /\
  reached (s2l "side.html") (s2l "/pages/sub/index.html") = s2l "/pages/sub/side.html" /\
  reached (s2l "/top.html") (s2l "/pages/sub/index.html") = s2l "/top.html" /\
  ns_get (NS 1 [7] [7; 8] [7; 8] (Some (NS 2 [] [9] [9] None))) 7 = Some (OInline 1) /\
  ns_get (NS 1 [7] [7; 8] [7; 8] (Some (NS 2 [] [9] [9] None))) 9 = Some (OFile 2) /\
  kwargs_for_include [1; 2; 3] [(1, 10); (2, 20); (4, 40)] [(2, 99)] = [(2, 99); (1, 10)].
Proof. vm_compute. repeat split. Qed.
