(* Properties/C05.v -- defs write at the call site; buffering, capture and calls with content *)
From MakoV Require Import Lib.Str Model.Core Proofs.CoreProofs.

(* for every set of defs, every construct (calls by name, captures, calls with content nested in any
   way, caller.body() any number of times, try blocks), every state inside a render function and every
   outcome: caller, the caller stack and nextcaller are what they were before, no buffer was added or
   lost, and only the buffer on top has grown *)
Theorem C05_render_state_consistent : forall defs fuel w me n s,
  nextcaller s = None -> bufs s <> [] -> w = writer_of s ->
  grows s (fst (fst (exec defs fuel w me n s))) /\ nextcaller (fst (fst (exec defs fuel w me n s))) = None.
Proof. exact render_state_consistent. Qed.
Print Assumptions C05_render_state_consistent.

Theorem C05_caller_restored : forall defs fuel w me n s,
  nextcaller s = None -> bufs s <> [] -> w = writer_of s ->
  let s' := fst (fst (exec defs fuel w me n s)) in
  callers s' = callers s /\ nextcaller s' = None /\ length (bufs s') = length (bufs s) /\ tl (bufs s') = tl (bufs s).
Proof. exact caller_restored. Qed.
Print Assumptions C05_caller_restored.

(* refinement cases: what a def made of text does, by kind *)
Theorem C05_def_call_writes_in_place : forall defs f me d l buffered filtered b r cs,
  nth_error defs d = Some {| d_body := texts l; d_buffered := buffered; d_filtered := filtered |} ->
  exec defs (S (S f)) (S (length r)) me (NCall d) {| bufs := b :: r; callers := cs; nextcaller := None |} =
    ({| bufs := (b ++ (if filtered then the_filter (concat l) else concat l)) :: r; callers := cs; nextcaller := None |}, ONormal, []).
Proof. exact def_call_writes_in_place. Qed.
Print Assumptions C05_def_call_writes_in_place.

Theorem C05_capture_leaves_output : forall defs f me d l b r cs,
  nth_error defs d = Some {| d_body := texts l; d_buffered := false; d_filtered := false |} ->
  exec defs (S (S f)) (S (length r)) me (NCapture d) {| bufs := b :: r; callers := cs; nextcaller := None |} =
    ({| bufs := (b ++ concat l) :: r; callers := cs; nextcaller := None |}, ONormal, []).
Proof. exact capture_leaves_output. Qed.
Print Assumptions C05_capture_leaves_output.

(* a call with content whose callee asks for the body twice: the body's text appears twice at the point of
   the call, between what the callee writes before and after, and caller is restored *)
Theorem C05_body_invoked_twice : forall defs f me d a z l b r cs,
  nth_error defs d = Some {| d_body := [NText a; NCallerBody; NCallerBody; NText z]; d_buffered := false; d_filtered := false |} ->
  exec defs (S (S (S f))) (S (length r)) me (NCallContent d (texts l)) {| bufs := b :: r; callers := cs; nextcaller := None |} =
    ({| bufs := (b ++ a ++ concat l ++ concat l ++ z) :: r; callers := cs; nextcaller := None |}, ONormal, []).
Proof. exact body_invoked_twice. Qed.
Print Assumptions C05_body_invoked_twice.

(* non-vacuity: a call with content whose callee is filtered and asks for the body twice; the body
   calls a def and probes *)

(* from any state inside a render function -- also one in which a caller is waiting in nextcaller for a call whose arguments are
   being evaluated -- every construct, in every outcome, leaves the caller stack and nextcaller as they were, adds or loses no
   buffer and lets only the buffer on top grow (no hypothesis on nextcaller: true since a call with content puts the slot back
   instead of clearing it, fix 98e6214) *)
Theorem C05_render_state_preserved : forall defs fuel w me n s,
  bufs s <> [] -> w = writer_of s ->
  grows s (fst (fst (exec defs fuel w me n s))) /\ nextcaller (fst (fst (exec defs fuel w me n s))) = nextcaller s.
Proof. exact render_state_preserved. Qed.
Print Assumptions C05_render_state_preserved.

Example C05_nonvacuous :
  render [ {| d_body := [NText (s2l "B"); NCallerBody; NCallerBody]; d_buffered := false; d_filtered := true |};
           {| d_body := [NText (s2l "c")]; d_buffered := true; d_filtered := false |} ]
         [NText (s2l "x"); NCallContent 0 [NText (s2l "b"); NCall 1; NProbe]; NText (s2l "y"); NProbe]
  = ({| bufs := [s2l "x[Bbcbc]y"]; callers := []; nextcaller := None |}, ONormal,
     [(2, 2, false, true); (2, 2, false, true); (1, 1, false, false)]%nat).
Proof. vm_compute. reflexivity. Qed.
