(* Properties/C19.v -- embedded Python keeps its meaning through analysis and re-emission *)
From MakoV Require Import Lib.Str Gen.AstUtil Model.Margin Model.PyScope Model.PyExpr
  Proofs.MarginProofs Proofs.PyScopeProofs Proofs.PyScopeGeneral Proofs.PyExprProofs.
Open Scope N_scope.

(* ---- (c) re-margining ---------------------------------------------------------------------- *)
(* for every text: the number of lines is unchanged (so every line keeps its number, which the
   line maps of C11/C12 and the extractors of C20 rely on) *)
Theorem C19_line_count_preserved : forall text, countN LF (adjust_whitespace text) = countN LF text.
Proof. exact line_count_preserved. Qed.
Print Assumptions C19_line_count_preserved.

Theorem C19_margin_removed_uniformly : forall m ls,
  Forall simple ls -> adjust_lines ls m0 (Some m) = map (strip_margin (Some m)) ls.
Proof. exact margin_removed_uniformly. Qed.
Print Assumptions C19_margin_removed_uniformly.

Theorem C19_first_code_line_sets_margin : forall l rest,
  simple l -> sets_margin l = true ->
  adjust_lines (l :: rest) m0 None = skipn (length (leading_blanks l)) l :: adjust_lines rest m0 (Some (leading_blanks l)).
Proof. exact first_code_line_sets_margin. Qed.
Print Assumptions C19_first_code_line_sets_margin.

Theorem C19_inside_multiline_untouched : forall l rest st margin,
  backslashed st = true \/ triple st <> None ->
  adjust_lines (l :: rest) st margin = l :: adjust_lines rest (snd (in_multi_line st l)) margin.
Proof. exact inside_multiline_untouched. Qed.
Print Assumptions C19_inside_multiline_untouched.

(* the printer side (write_indented_block + flush at the current indentation level) *)
Theorem C19_flush_one_line_per_entry : forall ind ls st margin, length (flush_lines ind ls st margin) = length ls.
Proof. exact flush_one_line_per_entry. Qed.
Print Assumptions C19_flush_one_line_per_entry.

Theorem C19_flush_inside_multiline_untouched : forall ind l rest st margin,
  p_backslashed st = true \/ p_triple st = true ->
  flush_lines ind (l :: rest) st margin = l :: flush_lines ind rest (snd (p_in_multi_line st l)) margin.
Proof. exact flush_inside_multiline_untouched. Qed.
Print Assumptions C19_flush_inside_multiline_untouched.

Theorem C19_flush_replaces_margin : forall ind m body rest,
  simple (m ++ body) -> p_in_multi_line p0 (m ++ body) = (false, p0) ->
  flush_lines ind ((m ++ body) :: rest) p0 (Some m) =
    (match m with [] => ind ++ body | _ => ind ++ body end) :: flush_lines ind rest p0 (Some m).
Proof. exact flush_replaces_margin. Qed.
Print Assumptions C19_flush_replaces_margin.

(* the full statement -- no character inside a string literal changes -- is false of the faithful
   model; the witness replays on the implementation (known finding C19-F3) *)
Theorem C19_strings_untouched_refuted :
  exists text, nth 1 (split_lines (adjust_whitespace text) []) [] <> nth 1 (split_lines text []) [].
Proof. exact strings_untouched_refuted. Qed.
Print Assumptions C19_strings_untouched_refuted.

(* ---- (b) which names the code needs from the namespace ---------------------------------------- *)
(* for every block without nested scopes, at every nesting depth: exactly the names read and never
   bound are demanded, exactly the names bound are declared, nothing else is demanded *)
Theorem C19_scope_exact_without_nested_scopes_partial : forall n code,
  flat_stmts n code = true ->
  (forall x, In x (needs_f n code) -> In x (snd (find_identifiers_f n code))) /\
  (forall x, In x (fst (find_identifiers_f n code)) <-> In x (binds n code)) /\
  (forall x, In x (snd (find_identifiers_f n code)) -> In x (free_stmts n code)).
Proof. exact scope_exact_without_nested_scopes. Qed.
Print Assumptions C19_scope_exact_without_nested_scopes_partial.

(* for every program and every depth -- nested defs, lambdas with every parameter kind and defaults,
   comprehensions, loops, try blocks --: every name the code needs from the template's namespace is
   recorded as undeclared, unless the analysis records it as declared by the block itself (which is
   the one way a needed name can be lost: see the refuted statement below) *)
Theorem C19_needed_names_demanded_or_declared : forall n code x,
  In x (needs_f n code) -> In x (snd (find_identifiers_f n code)) \/ In x (fst (find_identifiers_f n code)).
Proof. exact needed_names_demanded_or_declared. Qed.
Print Assumptions C19_needed_names_demanded_or_declared.

(* in general both directions are false of the faithful model: flow-sensitive locals of nested functions,
   and comprehension targets at block level (known finding C19-F2) *)
Theorem C19_no_spurious_demand_refuted :
  exists code x, In x (snd (find_identifiers code)) /\ ~ In x (fst (find_identifiers code)) /\ ~ In x (needs_from_namespace code).
Proof. exact no_spurious_demand_refuted. Qed.
Print Assumptions C19_no_spurious_demand_refuted.

Theorem C19_needed_names_demanded_refuted :
  exists code x, In x (needs_from_namespace code) /\ ~ In x (snd (find_identifiers code)).
Proof. exact needed_names_demanded_refuted. Qed.
Print Assumptions C19_needed_names_demanded_refuted.

(* ---- (a) re-emitted expressions ---------------------------------------------------------------- *)
(* on the sublanguage the printer has rules and symbols for (regenerated tables), it never raises *)
Theorem C19_print_total_on_supported_partial : forall f e, supported f e = true -> exists s, print f e = Some s.
Proof. exact print_total_on_supported. Qed.
Print Assumptions C19_print_total_on_supported_partial.

(* what remains: a lambda is written without parentheses (pinned by test_ast.test_expr_generate; known finding C19-F1);
   the repaired cases are Examples in Proofs/PyExprProofs.v over the regenerated tables *)
Example C19_lambda_operand_is_not_parenthesised :
  print_expr (PBin (s2l "Add") (PLambda [] [] None [] None (PName (s2l "a"))) (PName (s2l "b"))) = Some (s2l "(lambda : a + b)").
Proof. exact lambda_operand_is_not_parenthesised. Qed.

Example C19_margin_nonvacuous :
  adjust_whitespace (s2l "    x = 1" ++ [LF] ++ s2l "    if x:" ++ [LF] ++ s2l "        y = '''a" ++ [LF] ++ s2l "  b'''" ++ [LF] ++ s2l "    z = 2")
  = s2l "x = 1" ++ [LF] ++ s2l "if x:" ++ [LF] ++ s2l "    y = '''a" ++ [LF] ++ s2l "  b'''" ++ [LF] ++ s2l "z = 2".
Proof. vm_compute. reflexivity. Qed.

Example C19_scope_nonvacuous :
  let code := [SAssign [1] (EOp [EName 2; EName 1]); SFor [3] (EName 4) [SExpr (EOp [EName 3; EName 5])] []] in
  flat_stmts 8 code = true /\ find_identifiers_f 8 code = ([3; 1], [5; 4; 1; 2]) /\ needs_f 8 code = [2; 4; 5].
Proof. vm_compute. repeat split. Qed.

Example C19_print_nonvacuous :
  print_expr (PCall (PAttr (PName (s2l "a")) (s2l "b")) [PBin (s2l "Add") (PConst (s2l "1") 1) (PName (s2l "x"))] [(Some (s2l "k"), PTuple [PName (s2l "y")])])
  = Some (s2l "a.b((1 + x), k=(y,))").
Proof. vm_compute. reflexivity. Qed.
