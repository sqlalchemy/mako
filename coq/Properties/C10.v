(* Properties/C10.v -- escaping filters neutralise markup for every input and are
   invertible.  Statements only; each is closed by a lemma of Proofs/FiltersProofs.v.
   All quantify over every string (list of code points), no bound on length. *)
From MakoV Require Import Lib.Str Lib.Utf8 Gen.Unicode Gen.Filters Model.Filters Proofs.FiltersProofs.
Open Scope N_scope.

(* x: never raises; output has none of the four markup characters (less-than, greater-than,
   double and single quote); every ampersand starts a reference; the
   reference decoder returns the input (spec_markup is the conjunction) *)
Theorem C10_x_total : forall s, exists o, xml_escape s = Some o.
Proof. exact xml_escape_total. Qed.
Print Assumptions C10_x_total.

Theorem C10_x_safe_and_invertible : forall s o, xml_escape s = Some o ->
  no_markup o && amps_ok o && str_eqb (ref_unescape o) s = true.
Proof. exact xml_escape_spec. Qed.
Print Assumptions C10_x_safe_and_invertible.

(* h (MarkupSafe's table, modelled) *)
Theorem C10_h_total : forall s, exists o, html_escape s = Some o.
Proof. exact html_escape_total. Qed.
Print Assumptions C10_h_total.

Theorem C10_h_safe_and_invertible : forall s o, html_escape s = Some o ->
  no_markup o && amps_ok o && str_eqb (ref_unescape o) s = true.
Proof. exact html_escape_spec. Qed.
Print Assumptions C10_h_safe_and_invertible.

(* u: defined for every string of scalar values; URL-safe alphabet; percent/plus
   decoding followed by strict UTF-8 decoding returns the input *)
Theorem C10_u_total : forall s, forallb is_scalar s = true -> exists o, url_escape s = Some o.
Proof. exact url_escape_total. Qed.
Print Assumptions C10_u_total.

Theorem C10_u_safe_and_invertible : forall s o, url_escape s = Some o -> spec_url s o = true.
Proof. exact url_escape_spec. Qed.
Print Assumptions C10_u_safe_and_invertible.

Theorem C10_utf8_roundtrip : forall s bs, utf8_encode s = Some bs -> utf8_decode bs = Some s.
Proof. exact utf8_roundtrip. Qed.
Print Assumptions C10_utf8_roundtrip.

(* entity: exactly the characters with a named entity are replaced, and
   html_entities_unescape inverts it *)
Theorem C10_entity_exact : forall s, entity_exact s (html_entities_escape s) = true.
Proof. exact entity_escape_exact. Qed.
Print Assumptions C10_entity_exact.

Theorem C10_entity_roundtrip : forall s, html_entities_unescape (html_entities_escape s) = Some s.
Proof. exact entity_roundtrip. Qed.
Print Assumptions C10_entity_roundtrip.

(* trim removes only leading and trailing whitespace *)
Theorem C10_trim : forall s, spec_trim s (trim s) = true.
Proof. exact trim_spec. Qed.
Print Assumptions C10_trim.

(* decode.<enc> *)
Theorem C10_decode_returns_str : forall codec x,
  match x with
  | PStr s => decode_filter codec x = Some s
  | POther s => decode_filter codec x = Some s
  | PBytes b => decode_filter codec x = codec b
  end.
Proof. exact decode_returns_str. Qed.
Print Assumptions C10_decode_returns_str.

(* htmlentityreplace: for every charset oracle that encodes ASCII, encoding succeeds for
   every string, and the replacement of each unencodable character is ASCII text that the
   reference decoder maps back to exactly that character *)
Theorem C10_handler_total : forall enc s, ascii_encodable enc ->
  forallb (fun c => c <? 1114112) s = true -> exists b, encode_replace enc s = Some b.
Proof. exact handler_total. Qed.
Print Assumptions C10_handler_total.

Theorem C10_handler_replacement_decodes_back : forall c, 128 <= c -> c < 1114112 ->
  exists rep, entity_escape_full [c] = Some rep /\ spec_replacement c rep = true.
Proof. exact handler_replacement. Qed.
Print Assumptions C10_handler_replacement_decodes_back.

(* ... and the library's own decoder, html_entities_unescape, maps it back too (the numeric references are written
   with upper-case hexadecimal digits, which that decoder did not read before fix 36ccec6) *)
Theorem C10_handler_replacement_own_decoder : forall c, 128 <= c -> c < 1114112 ->
  exists rep, entity_escape_full [c] = Some rep /\ html_entities_unescape rep = Some [c].
Proof. exact handler_replacement_own_decoder. Qed.
Print Assumptions C10_handler_replacement_own_decoder.

Theorem C10_unescape_numeric_ref : forall c, c < 1114112 -> html_entities_unescape (numeric_ref c) = Some [c].
Proof. exact unescape_numeric_ref. Qed.
Print Assumptions C10_unescape_numeric_ref.

(* non-vacuity: the hypotheses are met by non-trivial inputs, and the conclusions are
   not trivially true (a wrong output fails the predicates) *)
Example C10_nonvacuous_x : xml_escape (s2l "a<b&""c'>") = Some (s2l "a&lt;b&amp;&#34;c&#39;&gt;").
Proof. vm_compute. reflexivity. Qed.
Example C10_spec_rejects_unescaped : spec_markup (s2l "<") (s2l "<") = false
                                  /\ spec_markup (s2l "&") (s2l "&") = false
                                  /\ spec_markup (s2l "<") (s2l "&gt;") = false.
Proof. vm_compute. repeat split. Qed.
Example C10_nonvacuous_u : url_escape [97; 32; 8364; 47] = Some (s2l "a+%E2%82%AC%2F")
                        /\ forallb is_scalar [97; 32; 8364; 47] = true.
Proof. vm_compute. split; reflexivity. Qed.
Example C10_nonvacuous_handler :
  entity_escape_full [8364] = Some (s2l "&euro;") /\ entity_escape_full [1046] = Some (s2l "&#x416;")
  /\ ascii_encodable (fun c => if c <? 128 then Some [c] else None).
Proof.
  split; [vm_compute; reflexivity|]. split; [vm_compute; reflexivity|].
  intros c Hc. apply N.ltb_lt in Hc. rewrite Hc. eexists; reflexivity.
Qed.
Example C10_spec_rejects_bytes_repr : spec_replacement 8364 (s2l "b'&euro;'") = false.
Proof. vm_compute. reflexivity. Qed.
