(* Properties/C03.v -- control lines and Python blocks execute with Python semantics *)
From Coq Require Import ZArith.
From MakoV Require Import Lib.Str Model.Loop Model.PyPrinter Proofs.LoopProofs Proofs.PyPrinterProofs.
Open Scope N_scope.

(* for every program of nested loops, try blocks, breaks, returns and exceptions, every answer of
   the loop detector and every stack: a construct leaves the loop stack as it found it *)
Theorem C03_loop_restored : forall rl fuel p s, stack_of (exec rl fuel p s) = s.
Proof. exact loop_restored. Qed.
Print Assumptions C03_loop_restored.

(* what the body sees: iteration i of n at one more level, the enclosing loop as parent *)
Theorem C03_loop_fields : forall rl f n s,
  rl (PFor n [PObserve]) = true ->
  exec rl (S (S f)) (PFor n [PObserve]) s =
    (s, ONormal, expected_obs (N.of_nat n) (S (length s)) (option_map l_index (hd_error s)) 0 n).
Proof. exact loop_fields. Qed.
Print Assumptions C03_loop_fields.

Theorem C03_fields_of_iteration : forall i n, i < n ->
  let c := {| l_index := i; l_len := n |} in
  (f_first c = true <-> i = 0) /\ (f_last c = true <-> i = n - 1) /\
  (f_odd c = true <-> i mod 2 = 1) /\ f_even c = negb (f_odd c) /\
  f_reverse_index c = Z.of_N (n - i - 1) /\
  (forall A (vs : list A), vs <> [] -> f_cycle c vs = nth_error vs (N.to_nat (i mod N.of_nat (length vs)))).
Proof. exact fields_of_iteration. Qed.
Print Assumptions C03_fields_of_iteration.

(* for every tree of control structures (any depth, any number of clauses, empty bodies), at every
   starting depth: each line is written at its depth in the tree and the printer returns to the
   state it started in *)
Theorem C03_printer_indent_is_depth : forall t d stk, prun (st d stk) (emit t) = Some (st d stk, depths d t).
Proof. exact printer_indent_is_depth. Qed.
Print Assumptions C03_printer_indent_is_depth.

(* for every list of children of a control line: a block without a statement of its own gets a pass *)
Theorem C03_no_empty_block : forall cs, needs_pass cs = false -> body_has_statement (visible cs) = true.
Proof. exact no_empty_block. Qed.
Print Assumptions C03_no_empty_block.

Example C03_loop_nonvacuous :
  run_prog [PFor 2 [PFor 2 [PObserve; PBreak]; PObserve]; PObserve] =
  ([], ONormal, [({| l_index := 0; l_len := 2 |}, 2%nat, Some 0); ({| l_index := 0; l_len := 2 |}, 1%nat, None);
                 ({| l_index := 0; l_len := 2 |}, 2%nat, Some 1); ({| l_index := 1; l_len := 2 |}, 1%nat, None)]).
Proof. vm_compute. reflexivity. Qed.

Example C03_printer_nonvacuous :
  print_lines [Some (s2l "try:"); Some (s2l "x = 1"); Some (s2l "except KeyError:"); Some (s2l "pass"); Some (s2l "except:"); Some (s2l "# c"); None;
               Some (s2l "def f():"); Some (s2l "return format(x) # if:"); None]
  = Some (pinit, [0; 1; 0; 1; 0; 1; 0; 1]%nat).
Proof. vm_compute. reflexivity. Qed.
