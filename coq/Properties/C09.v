(* Properties/C09.v -- template lookup never escapes its configured directories.
   All statements quantify over every URI string (any length, any mixture of "..", ".",
   empty segments, slashes and backslashes), every directory and every file-system oracle. *)
From MakoV Require Import Lib.Str Model.Paths Proofs.PathsProofs Proofs.PathsModule.
Open Scope N_scope.

(* If the constructor's check passes, the path the lookup probes and hands to Template
   consists of the directory's own components followed by plain names (non-empty, not ".",
   not "..", without "/"): it lies inside the directory. *)
Theorem C09_lookup_contained : forall d uri,
  template_check uri = true ->
  exists segs,
    norm_stack (join d (clean_lookup uri)) = segs ++ norm_stack d /\
    is_abs (join d (clean_lookup uri)) = is_abs d /\
    Forall plainP segs.
Proof. exact lookup_contained. Qed.
Print Assumptions C09_lookup_contained.

(* get_template over any list of directories and any file system: a returned template's
   file lies inside one of the configured directories *)
Theorem C09_get_template_contained : forall isfile dirs uri f,
  get_template isfile dirs uri = Found f ->
  exists d segs, In d dirs /\ f = normpath (join d (clean_lookup uri)) /\
    norm_stack (join d (clean_lookup uri)) = segs ++ norm_stack d /\
    is_abs (join d (clean_lookup uri)) = is_abs d /\ Forall plainP segs.
Proof. exact get_template_contained. Qed.
Print Assumptions C09_get_template_contained.

(* a URI whose normalisation points above the root never yields a template *)
Theorem C09_escaping_uri_raises : forall isfile dirs uri,
  template_check uri = false ->
  get_template isfile dirs uri = TopLevelLookup \/ get_template isfile dirs uri = LookupExc.
Proof. exact get_template_rejects. Qed.
Print Assumptions C09_escaping_uri_raises.

(* the lookup and the constructor clean a URI identically (the 1.3.11/1.3.12 class of bug) *)
Theorem C09_both_normalisers_agree : forall uri, clean_lookup uri = clean_template uri.
Proof. exact clean_agree. Qed.
Print Assumptions C09_both_normalisers_agree.

(* include / inherit / namespace / get_namespace: the adjusted URI is looked up by the same
   function, from any calling template *)
Theorem C09_adjust_then_lookup_contained : forall isfile dirs uri relativeto f,
  get_template isfile dirs (adjust_uri uri relativeto) = Found f ->
  exists d segs, In d dirs /\
    norm_stack (join d (clean_lookup (adjust_uri uri relativeto))) = segs ++ norm_stack d /\
    Forall plainP segs.
Proof. exact adjust_then_lookup_contained. Qed.
Print Assumptions C09_adjust_then_lookup_contained.

(* generated module files lie beneath module_directory: for every module directory and every URI the constructor accepts,
   the path the module file is written to has the components of the (normalised) module directory followed by plain names *)
Theorem C09_module_path_contained : forall md uri,
  template_check uri = true -> within (normpath md) (module_path md uri) = true.
Proof. exact module_path_contained. Qed.
Print Assumptions C09_module_path_contained.

Example C09_nonvacuous_pass : template_check (s2l "/sub/../a//b\c/./x.html") = true
  /\ normpath (join (s2l "/srv/t") (clean_lookup (s2l "/sub/../a//b\c/./x.html"))) = s2l "/srv/t/a/b/c/x.html".
Proof. vm_compute. split; reflexivity. Qed.
Example C09_nonvacuous_reject : template_check (s2l "a/../../etc/passwd") = false
  /\ template_check (s2l "\..\x") = false /\ template_check (s2l "//..//x") = false.
Proof. vm_compute. repeat split. Qed.
Example C09_within_rejects : within (s2l "/srv/t") (s2l "/srv/secret") = false
  /\ within (s2l "/srv/t") (s2l "/srv/t2/x") = false /\ within (s2l "/srv/t") (s2l "/srv/t/a/x") = true.
Proof. vm_compute. repeat split. Qed.
