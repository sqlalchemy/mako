(* Properties/C12.v -- runtime tracebacks and compile warnings map to template lines *)
From MakoV Require Import Lib.Str Model.LineMap Proofs.LineMapProofs.
Open Scope N_scope.

(* for every sparse line map and every module line below its greatest key, the dense map used by
   RichTraceback and by the warning translation gives the entry at or before that line *)
Theorem C12_full_map_is_floor : forall lm m, 1 <= m < maxkey lm ->
  (forall k v, 1 <= k <= m -> assocN k lm = Some v -> (forall k', k < k' <= m -> assocN k' lm = None) ->
     nth_error (full_line_map lm) (N.to_nat (m - 1)) = Some v) /\
  ((forall k', 1 <= k' <= m -> assocN k' lm = None) -> nth_error (full_line_map lm) (N.to_nat (m - 1)) = Some 1).
Proof. exact full_map_is_floor. Qed.
Print Assumptions C12_full_map_is_floor.

Theorem C12_full_map_length : forall lm, length (full_line_map lm) = N.to_nat (maxkey lm - 1).
Proof. exact full_map_length. Qed.
Print Assumptions C12_full_map_length.

(* the printer, in every reachable state *)
Theorem C12_reachable_keys_below : forall ops, keys_below (prun ops).
Proof. exact reachable_keys_below. Qed.
Print Assumptions C12_reachable_keys_below.

Theorem C12_construct_owns_its_lines : forall s n k rest,
  keys_below s -> assocN (lineno s) (smap s) = None -> 1 <= k -> Forall (fun o => o <> PMeta) rest ->
  let s' := fold_left pstep (PStart n :: PWrite k :: rest) s in
  assocN (lineno s) (smap s') = Some n /\
  (forall j, lineno s < j < lineno s + k -> assocN j (smap s') = None) /\
  lineno s + k <= lineno s'.
Proof. exact construct_owns_its_lines. Qed.
Print Assumptions C12_construct_owns_its_lines.

Theorem C12_block_lines_exact : forall n s st i,
  keys_below s -> assocN (lineno s) (smap s) = None -> (i < n)%nat ->
  assocN (lineno s + N.of_nat i) (smap (block s n (Some st))) = Some (st + N.of_nat i).
Proof. exact block_lines_exact. Qed.
Print Assumptions C12_block_lines_exact.

(* end to end, for every sequence of printer operations before and after: a construct that starts at a
   fresh module line and writes k lines is shown, for every one of those lines, at the template line it
   gave to start_source -- through the sparse map, the sentinel entry and the dense map *)
Theorem C12_lines_translate_to_construct : forall pre n k rest,
  let s := prun pre in
  assocN (lineno s) (smap s) = None -> 1 <= k -> Forall (fun o => o <> PMeta) rest ->
  let final := fold_left pstep ((PStart n :: PWrite k :: rest) ++ [PMeta]) s in
  forall j, lineno s <= j < lineno s + k ->
  nth_error (full_line_map (smap final)) (N.to_nat (j - 1)) = Some n.
Proof. exact lines_translate_to_construct. Qed.
Print Assumptions C12_lines_translate_to_construct.

(* what the "first entry wins" rule means for a construct that writes no line of its own *)
Theorem C12_first_entry_wins : forall s n1 n2,
  assocN (lineno s) (smap s) = None ->
  assocN (lineno s) (smap (fold_left pstep [PStart n1; PStart n2] s)) = Some n1.
Proof. exact first_entry_wins. Qed.
Print Assumptions C12_first_entry_wins.

Theorem C12_plain_frames_unchanged : forall f, f_module f = None -> translate f = TPlain (f_lineno f).
Proof. exact plain_frames_unchanged. Qed.
Print Assumptions C12_plain_frames_unchanged.

Theorem C12_several_templates : forall f g, f_module f = f_module g -> f_lineno f = f_lineno g -> translate f = translate g.
Proof. exact several_templates. Qed.
Print Assumptions C12_several_templates.

Theorem C12_template_frame_translated : forall lm nlines m v,
  1 <= m < maxkey lm -> nth_error (full_line_map lm) (N.to_nat (m - 1)) = Some v -> 1 <= v <= nlines ->
  translate {| f_module := Some (lm, nlines); f_lineno := m |} = TTemplate m v (Some (v - 1)).
Proof. exact template_frame_translated. Qed.
Print Assumptions C12_template_frame_translated.

Theorem C12_innermost_template_frame_reported_partial : forall recs lnm v ix,
  v <> 0 -> recs <> [] -> select (recs ++ [TTemplate lnm v ix]) = Some v.
Proof. exact innermost_template_frame_reported_partial. Qed.
Print Assumptions C12_innermost_template_frame_reported_partial.

Theorem C12_innermost_template_frame_reported_refuted : exists lnm v ix, v <> 0 /\ select [TTemplate lnm v ix] = None.
Proof. exact innermost_template_frame_reported_refuted. Qed.
Print Assumptions C12_innermost_template_frame_reported_refuted.

(* non-vacuity: the module of the two-line template  hello / dollar-brace 1/0  *)
Example C12_nonvacuous :
  let s := prun [PWrite 14; PStart 0; PWrite 5; PStart 1; PWrite 1; PStart 2; PWrite 1; PWrite 5; PMeta] in
  smap s = [(15, 0); (20, 1); (21, 2); (27, 21)] /\
  nth_error (full_line_map (smap s)) 20 = Some 2 /\
  translate {| f_module := Some (smap s, 2); f_lineno := 21 |} = TTemplate 21 2 (Some 1).
Proof. vm_compute. repeat split. Qed.
