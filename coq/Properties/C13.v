(* Properties/C13.v -- an exception at any point leaves the render state consistent *)
From MakoV Require Import Lib.Str Model.Core Proofs.CoreProofs.

(* the consistency theorem is stated for every outcome; instantiated for exceptions: wherever it is
   raised -- inside nested defs, buffered or filtered sections, captures, calls with content, bodies
   invoked through caller -- when control reaches an enclosing handler the caller stack, nextcaller and
   the number of buffers are those of the handler's scope, and text written directly stays *)
Theorem C13_state_after_exception : forall defs fuel w me n s,
  nextcaller s = None -> bufs s <> [] -> w = writer_of s ->
  snd (fst (exec defs fuel w me n s)) = ORaised ->
  grows s (fst (fst (exec defs fuel w me n s))) /\ nextcaller (fst (fst (exec defs fuel w me n s))) = None.
Proof. intros defs fuel w me n s Hn Hb Hw _. apply render_state_consistent; assumption. Qed.
Print Assumptions C13_state_after_exception.

(* handled by a % try in a template: the handler runs, and whatever follows runs, in the state of the try's own scope *)
Theorem C13_handled_in_template : forall defs fuel w me body handler s,
  nextcaller s = None -> bufs s <> [] -> w = writer_of s ->
  let s' := fst (fst (exec defs fuel w me (NTry body handler) s)) in
  callers s' = callers s /\ nextcaller s' = None /\ length (bufs s') = length (bufs s) /\ tl (bufs s') = tl (bufs s).
Proof. intros. apply caller_restored; assumption. Qed.
Print Assumptions C13_handled_in_template.

(* the partial content of an abandoned buffer is discarded: nothing of it reaches any buffer below *)
Theorem C13_abandoned_buffer_discarded : forall defs f w me d df s,
  nth_error defs d = Some df -> d_buffered df || d_filtered df = true ->
  nextcaller s = None -> bufs s <> [] -> w = writer_of s ->
  snd (fst (exec defs (S f) w me (NCall d) s)) <> ONormal ->
  bufs (fst (fst (exec defs (S f) w me (NCall d) s))) = bufs s.
Proof. exact abandoned_buffer_discarded. Qed.
Print Assumptions C13_abandoned_buffer_discarded.

(* text written directly before the exception stays where it was written *)
Theorem C13_direct_text_stays : forall defs f me t b r cs,
  run_nodes (exec defs (S f)) (S (length r)) me [NText t; NRaise] {| bufs := b :: r; callers := cs; nextcaller := None |} =
    ({| bufs := (b ++ t) :: r; callers := cs; nextcaller := None |}, ORaised, []).
Proof. exact direct_text_stays. Qed.
Print Assumptions C13_direct_text_stays.

(* non-vacuity: an exception inside the body of a call with content, inside a filtered def, inside a
   capture; handled two levels up; direct text stays, buffered text goes *)

(* from any state inside a render function -- also one in which a caller is waiting in nextcaller for a call whose arguments are
   being evaluated -- every construct, in every outcome, leaves the caller stack and nextcaller as they were, adds or loses no
   buffer and lets only the buffer on top grow (no hypothesis on nextcaller: true since a call with content puts the slot back
   instead of clearing it, fix 98e6214) *)
Theorem C13_render_state_preserved : forall defs fuel w me n s,
  bufs s <> [] -> w = writer_of s ->
  grows s (fst (fst (exec defs fuel w me n s))) /\ nextcaller (fst (fst (exec defs fuel w me n s))) = nextcaller s.
Proof. exact render_state_preserved. Qed.
Print Assumptions C13_render_state_preserved.

Example C13_nonvacuous :
  render [ {| d_body := [NText (s2l "B"); NCallerBody]; d_buffered := false; d_filtered := true |};
           {| d_body := [NText (s2l "c"); NCallContent 0 [NText (s2l "b"); NRaise]]; d_buffered := false; d_filtered := false |} ]
         [NText (s2l "x"); NTry [NText (s2l "d"); NCapture 1; NText (s2l "never")] [NText (s2l "h"); NProbe]; NText (s2l "y")]
  = ({| bufs := [s2l "xdhy"]; callers := []; nextcaller := None |}, ONormal, [(1, 1, false, false)]%nat).
Proof. vm_compute. reflexivity. Qed.
