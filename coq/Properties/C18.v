(* Properties/C18.v -- template text round-trips through input and output encodings *)
From MakoV Require Import Lib.Str Gen.Unicode Model.Encoding Proofs.EncodingProofs.
Open Scope N_scope.

(* which first lines declare an encoding, for every text *)
Theorem C18_coding_comment_shape : forall s name rest, coding_match s = Some (name, rest) ->
  exists pre sep ws post nl,
    s = [cHASHe] ++ pre ++ s2l "coding" ++ [sep] ++ ws ++ name ++ post ++ [nl] ++ rest /\
    no_lf pre /\ (sep = cCOLONe \/ sep = cEQe) /\ forallb is_blank_e ws = true /\
    name <> [] /\ forallb is_namechar_e name = true /\ no_lf post.
Proof. exact coding_comment_shape. Qed.
Print Assumptions C18_coding_comment_shape.

(* "declared by a magic coding comment on its first line": everything the pattern consumes lies before the first line feed *)
Theorem C18_coding_comment_on_first_line : forall s name rest, coding_match s = Some (name, rest) ->
  exists line nl, s = line ++ [nl] ++ rest /\ no_lf line.
Proof. exact coding_comment_on_first_line. Qed.
Print Assumptions C18_coding_comment_on_first_line.

(* the leading part of the pattern is greedy: of several declarations on the first line the last counts *)
Theorem C18_last_declaration_on_the_line_counts : forall r name rest, find_last r = Some (name, rest) ->
  exists pre s, r = pre ++ s /\ no_lf pre /\ try_at s = Some (name, rest) /\
    forall mid s', s = mid ++ s' -> mid <> [] -> no_lf mid -> try_at s' = None.
Proof. exact find_last_is_last. Qed.
Print Assumptions C18_last_declaration_on_the_line_counts.

Theorem C18_no_hash_no_comment : forall s, (match s with c :: _ => c <> cHASHe | [] => True end) -> coding_match s = None.
Proof. exact no_hash_no_comment. Qed.
Print Assumptions C18_no_hash_no_comment.

(* the decision table, for every byte string, every input_encoding and every codec oracle *)
Theorem C18_comment_beats_input_encoding : forall dec_ignore names_utf8 b known name rest,
  strip_prefix BOM b = None -> coding_match (dec_ignore b) = Some (name, rest) ->
  decide dec_ignore names_utf8 (IBytes b) known = OBytes name b.
Proof. exact comment_beats_input_encoding. Qed.
Print Assumptions C18_comment_beats_input_encoding.

Theorem C18_input_encoding_then_utf8 : forall dec_ignore names_utf8 b known,
  strip_prefix BOM b = None -> coding_match (dec_ignore b) = None ->
  decide dec_ignore names_utf8 (IBytes b) known = OBytes (or_default known) b.
Proof. exact input_encoding_then_utf8. Qed.
Print Assumptions C18_input_encoding_then_utf8.

Theorem C18_bom_is_utf8 : forall dec_ignore names_utf8 p known,
  (coding_match (dec_ignore p) = None \/ exists name rest, coding_match (dec_ignore p) = Some (name, rest) /\ names_utf8 name = true) ->
  decide dec_ignore names_utf8 (IBytes (BOM ++ p)) known = OBytes utf8 p.
Proof. exact bom_is_utf8. Qed.
Print Assumptions C18_bom_is_utf8.

Theorem C18_bom_conflict_raises : forall dec_ignore names_utf8 dec p known name rest,
  coding_match (dec_ignore p) = Some (name, rest) -> names_utf8 name = false ->
  decode_raw_stream dec_ignore names_utf8 dec (IBytes (BOM ++ p)) known = RCompileError.
Proof. exact bom_conflict_is_compile_error. Qed.
Print Assumptions C18_bom_conflict_raises.

Theorem C18_undecodable_raises : forall dec_ignore names_utf8 dec text known e p,
  decide dec_ignore names_utf8 text known = OBytes e p -> dec e p = None ->
  decode_raw_stream dec_ignore names_utf8 dec text known = RCompileError.
Proof. exact undecodable_raises. Qed.
Print Assumptions C18_undecodable_raises.

Theorem C18_decodable_gives_decoded_text : forall dec_ignore names_utf8 dec text known e p t,
  decide dec_ignore names_utf8 text known = OBytes e p -> dec e p = Some t ->
  decode_raw_stream dec_ignore names_utf8 dec text known = RText e t.
Proof. exact decodable_gives_decoded_text. Qed.
Print Assumptions C18_decodable_gives_decoded_text.

Theorem C18_str_is_returned_unchanged : forall dec_ignore names_utf8 t known, exists e, decide dec_ignore names_utf8 (IStr t) known = OStr e t.
Proof. exact str_is_returned_unchanged. Qed.
Print Assumptions C18_str_is_returned_unchanged.

(* bytes compile to the same template as their decoded text (when the comment survives decoding,
   which holds for ASCII-compatible encodings: the codec oracle's assumption) *)
Theorem C18_bytes_like_decoded_text_partial : forall dec_ignore names_utf8 dec b known name rest t,
  strip_prefix BOM b = None -> coding_match (dec_ignore b) = Some (name, rest) -> dec name b = Some t ->
  coding_match t = Some (name, rest) ->
  decode_raw_stream dec_ignore names_utf8 dec (IBytes b) known = decode_raw_stream dec_ignore names_utf8 dec (IStr t) known.
Proof. exact bytes_like_decoded_text. Qed.
Print Assumptions C18_bytes_like_decoded_text_partial.

Theorem C18_render_unicode_ignores_output_encoding : forall enc oe1 oe2 er1 er2 pieces,
  render_out enc true oe1 er1 pieces = render_out enc true oe2 er2 pieces.
Proof. exact render_unicode_ignores_output_encoding. Qed.
Print Assumptions C18_render_unicode_ignores_output_encoding.

Theorem C18_render_is_str_without_output_encoding : forall enc errors pieces,
  render_out enc false None errors pieces = render_out enc true None errors pieces.
Proof. exact render_is_str_without_output_encoding. Qed.
Print Assumptions C18_render_is_str_without_output_encoding.

Theorem C18_render_is_encode_of_render_unicode : forall enc e errors pieces text,
  e <> [] -> render_out enc true (Some e) errors pieces = RStr text ->
  render_out enc false (Some e) errors pieces = match enc e errors text with Some b => RBytes b | None => REncodeError end.
Proof. exact render_is_encode_of_render_unicode. Qed.
Print Assumptions C18_render_is_encode_of_render_unicode.

(* non-vacuity: a real first line; the last declaration on the line wins; the blanks after the colon do not cross the line *)
Example C18_nonvacuous :
  coding_match (s2l "# -*- coding: koi8-r -*-" ++ [LF] ++ s2l "hello") = Some (s2l "koi8-r", s2l "hello") /\
  coding_match (s2l "## coding=a coding:b x" ++ [LF] ++ s2l "t") = Some (s2l "b", s2l "t") /\
  coding_match (s2l "# coding:" ++ [LF] ++ s2l "latin-1 z" ++ [LF] ++ s2l "t") = None /\
  coding_match (s2l "# coding: utf-8") = None /\
  decide (fun b => b) (str_eqb utf8) (IBytes (BOM ++ s2l "# coding: latin-1" ++ [LF])) None = OBomConflict (s2l "latin-1").
Proof. vm_compute. repeat split. Qed.
