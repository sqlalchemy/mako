(* Properties/C17.v -- cached sections run once per key and replay their exact output *)
From MakoV Require Import Lib.Str Gen.Unicode Model.Cache Proofs.CacheProofs Proofs.CacheKwHistory.
Open Scope N_scope.

(* a hit replays the stored value: the body is not executed, no state changes *)
Theorem C17_hit_replays : forall f uri ctx s id key kids v,
  is_enabled s uri = true ->
  slookup (module_id uri, key_of ctx key) (store s) = Some v ->
  render_sec (S f) uri ctx s (Sec id true key kids) = Some (v, s).
Proof. exact hit_replays. Qed.
Print Assumptions C17_hit_replays.

(* the body runs exactly when the backend has no value for the key: a miss yields the output
   of the uncached section from the same state, and that is what is stored *)
Theorem C17_body_runs_iff_backend_misses : forall f uri ctx s id key kids v s',
  is_enabled s uri = true ->
  slookup (module_id uri, key_of ctx key) (store s) = None ->
  render_sec (S f) uri ctx s (Sec id true key kids) = Some (v, s') ->
  exists s2,
    render_sec (S f) uri ctx s (Sec id false key kids) = Some (v, s2) /\
    s' = with_store s2 (sput (module_id uri, key_of ctx key) v (store s2)) /\
    slookup (module_id uri, key_of ctx key) (store s') = Some v.
Proof. exact miss_creates_uncached_output. Qed.
Print Assumptions C17_body_runs_iff_backend_misses.

Theorem C17_executed_body_has_fresh_execution_number : forall f uri ctx s id key kids v s',
  render_sec (S f) uri ctx s (Sec id false key kids) = Some (v, s') ->
  exists vs, v = Val id (cget id (counters s) + 1) (ctx 0) vs.
Proof. exact uncached_runs. Qed.
Print Assumptions C17_executed_body_has_fresh_execution_number.

(* every later render under any context with the same key returns the creation output *)
Theorem C17_replay_equals_creation_output : forall f uri ctx ctx' s id key kids v s',
  is_enabled s uri = true ->
  slookup (module_id uri, key_of ctx key) (store s) = None ->
  render_sec (S f) uri ctx s (Sec id true key kids) = Some (v, s') ->
  key_of ctx' key = key_of ctx key ->
  render_sec (S f) uri ctx' s' (Sec id true key kids) = Some (v, s').
Proof. exact replay_equals_creation_output. Qed.
Print Assumptions C17_replay_equals_creation_output.

Theorem C17_invalidate_forces_rerun : forall tm fuel s uri k s1,
  cstep tm fuel s (Invalidate uri k) = Some ([], s1) ->
  slookup (module_id uri, k) (store s1) = None.
Proof. exact invalidate_forces_rerun. Qed.
Print Assumptions C17_invalidate_forces_rerun.

Theorem C17_disabled_runs_every_time : forall f uri ctx s id key kids,
  is_enabled s uri = false ->
  render_sec (S f) uri ctx s (Sec id true key kids) = render_sec (S f) uri ctx s (Sec id false key kids).
Proof. exact disabled_runs_every_time. Qed.
Print Assumptions C17_disabled_runs_every_time.

(* isolation holds between templates with different cache ids, for renders of any depth ... *)
Theorem C17_isolation_partial : forall fuel uri ctx st x v st',
  render_sec fuel uri ctx st x = Some (v, st') ->
  forall id k, id <> module_id uri -> slookup (id, k) (store st') = slookup (id, k) (store st).
Proof. exact render_isolated. Qed.
Print Assumptions C17_isolation_partial.

Theorem C17_isolation_partial_invalidate_set : forall tm fuel s uri' k' v k id,
  id <> module_id uri' ->
  (forall s1, cstep tm fuel s (Invalidate uri' k') = Some ([], s1) -> slookup (id, k) (store s1) = slookup (id, k) (store s)) /\
  (forall s1, cstep tm fuel s (CSet uri' k' v) = Some ([], s1) -> slookup (id, k) (store s1) = slookup (id, k) (store s)).
Proof. exact isolation_partial. Qed.
Print Assumptions C17_isolation_partial_invalidate_set.

(* ... but "entries of one template are never served to another" in full is refuted:
   different URIs can have the same cache id (known finding C17-F1) *)
Theorem C17_isolation_refuted :
  uri_a <> uri_b /\ module_id uri_a = module_id uri_b /\
  exists s1, crun tm_ab 5 cinit [Render uri_a 1; Render uri_b 2] = Some ([[Val 1 1 1 []]; [Val 1 1 1 []]], s1).
Proof. exact isolation_refuted. Qed.
Print Assumptions C17_isolation_refuted.

(* backend arguments: template < page < section *)
Theorem C17_args_precedence : forall k tmpl page section,
  aget k (final_args tmpl page section) =
  match aget k section with
  | Some v => Some v
  | None => match aget k page with Some v => Some v | None => aget k tmpl end
  end.
Proof. exact args_precedence. Qed.
Print Assumptions C17_args_precedence.

(* "the backend receives Template cache_args overridden by <%page> cache_* overridden by the section's own": on every
   render, whatever was asked of the cache before (an invalidate_*() before the first render included) *)
Theorem C17_render_args_are_its_own : forall regions d tmpl kw,
  fst (get_cache_kw regions d true tmpl kw) = update tmpl kw.
Proof. exact render_args_are_its_own. Qed.
Print Assumptions C17_render_args_are_its_own.

Theorem C17_invalidate_records_nothing : forall regions d tmpl kw,
  snd (get_cache_kw regions d false tmpl kw) = regions.
Proof. exact invalidate_records_nothing. Qed.
Print Assumptions C17_invalidate_records_nothing.

(* invalidate_body / invalidate_def / invalidate_closure reach the backend with the arguments of the last render *)
Theorem C17_invalidate_uses_last_render_args : forall regions d tmpl kw kw',
  let regions1 := snd (get_cache_kw regions d true tmpl kw) in
  fst (get_cache_kw regions1 d false tmpl kw') = update tmpl kw.
Proof. exact invalidate_uses_last_render_args. Qed.
Print Assumptions C17_invalidate_uses_last_render_args.

(* over any history of renders and invalidate_*() calls of one section (no bound on its length): every render hands the
   backend the template's arguments overridden by its own, every invalidate those of the section's last render -- or the
   template's alone when the section has not rendered yet *)
Theorem C17_cache_arguments_over_any_history : forall d tmpl ops,
  kw_run [] d tmpl ops = kw_spec None tmpl ops.
Proof. exact cache_arguments_over_any_history. Qed.
Print Assumptions C17_cache_arguments_over_any_history.

Example C17_nonvacuous :
  exists s1, crun [(s2l "/t", [Sec 1 false (KConst (s2l "render_body")) [Sec 2 true (KConst (s2l "render_d")) []; Sec 3 true (KCtx 0) []]])]
       5 cinit [Render (s2l "/t") 1; Render (s2l "/t") 2; Invalidate (s2l "/t") (0 :: s2l "render_d"); Render (s2l "/t") 1]
  = Some ([[Val 1 1 1 [Val 2 1 1 []; Val 3 1 1 []]]; [Val 1 2 2 [Val 2 1 1 []; Val 3 2 2 []]]; [];
           [Val 1 3 1 [Val 2 2 1 []; Val 3 1 1 []]]], s1).
Proof. eexists. vm_compute. reflexivity. Qed.
