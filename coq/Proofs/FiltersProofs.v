(* Proofs/FiltersProofs.v -- C10, the escaping filters.  The pattern throughout: an encoder writes one token
   for each character, a decoder reads one token and goes on with the rest (dec (tok ++ rest) = c :: dec rest), and
   a round trip is then an induction over the input. *)
From Coq Require Import ZArith ZifyBool. (* ZifyBool: lia reads <?, =? and && in hypotheses *)
From MakoV Require Import Lib.Str Lib.Assoc Lib.Utf8 Gen.Unicode Gen.Filters Model.Filters.
Open Scope N_scope.

(* what may stand between '&' and ';' in a reference: no ';', no '&', no markup; 40 is take_until_semi's look-ahead *)
Definition name_byte (x : N) : bool := negb (memN x (59 :: 38 :: markup_chars)).
Definition name_ok (nm : str) : bool := forallb name_byte nm && (length nm <? 40)%nat.

Lemma name_ok_spec nm : name_ok nm = true ->
  ~ In 59 nm /\ ~ In 38 nm /\ no_markup nm = true /\ (length nm < 40)%nat.
Proof.
  intros H. apply andb_true_iff in H as [H Hl]. apply Nat.ltb_lt in Hl.
  assert (F := proj1 (forallb_forall _ _) H).
  split; [intros Hin; discriminate (F _ Hin)|]. split; [intros Hin; discriminate (F _ Hin)|]. split; [|exact Hl].
  apply forallb_forall. intros x Hx. apply F in Hx. unfold name_byte, memN in *. cbn [existsb] in Hx.
  destruct (x =? 59), (x =? 38); try discriminate. exact Hx.
Qed.

Lemma take_until_semi_name fuel nm rest : ~ In 59 nm -> ~ In 38 nm -> (length nm < fuel)%nat ->
  take_until_semi fuel (nm ++ 59 :: rest) = Some (nm, S (length nm)).
Proof.
  revert nm; induction fuel as [|f IH]; intros [|c nm] H59 H38 Hlen; cbn [length] in Hlen; try lia; [reflexivity|].
  apply not_in_cons in H59 as [Hc1 H59], H38 as [Hc2 H38].
  apply not_eq_sym, N.eqb_neq in Hc1, Hc2. cbn [app take_until_semi]. rewrite Hc1, Hc2, IH; auto. lia.
Qed.

Lemma amps_ok_app a b : ~ In 38 a -> amps_ok (a ++ b) = amps_ok b.
Proof.
  induction a as [|x a IH]; intros H; [reflexivity|].
  apply not_in_cons in H as [Hx H]. apply not_eq_sym, N.eqb_neq in Hx.
  cbn [app amps_ok]. rewrite Hx. exact (IH H).
Qed.

Lemma ref_skip nm x rest : ref_unescape_go (nm ++ x :: rest) (S (length nm)) = ref_unescape_go rest 0.
Proof. induction nm as [|y nm IH]; [reflexivity|exact IH]. Qed.

Lemma no_markup_app a b : no_markup (a ++ b) = no_markup a && no_markup b.
Proof. apply forallb_app. Qed.

(* [is_ref c e]: e is a reference "&name;" that the reference decoder reads as c *)
Definition is_ref (c : N) (e : str) : Prop :=
  exists nm, e = 38 :: nm ++ [59] /\ name_ok nm = true /\ ref_lookup nm = Some c.

Lemma ref_shape nm rest : (38 :: nm ++ [59]) ++ rest = 38 :: nm ++ 59 :: rest.
Proof. cbn [app]. rewrite <- app_assoc. reflexivity. Qed.

Lemma ref_decode c e rest : is_ref c e -> ref_unescape_go (e ++ rest) 0 = c :: ref_unescape_go rest 0.
Proof.
  intros (nm & -> & Hok & Hl). destruct (name_ok_spec nm Hok) as (H59 & H38 & _ & Hlen).
  rewrite ref_shape. cbn [ref_unescape_go].
  rewrite N.eqb_refl, take_until_semi_name, Hl, ref_skip by assumption. reflexivity.
Qed.

Lemma ref_amps c e rest : is_ref c e -> amps_ok (e ++ rest) = amps_ok rest.
Proof.
  intros (nm & -> & Hok & Hl). destruct (name_ok_spec nm Hok) as (H59 & H38 & _ & Hlen).
  rewrite ref_shape. cbn [amps_ok].
  rewrite N.eqb_refl, take_until_semi_name, Hl, amps_ok_app by assumption. reflexivity.
Qed.

Lemma ref_markup c e : is_ref c e -> no_markup e = true.
Proof.
  intros (nm & -> & Hok & _). destruct (name_ok_spec nm Hok) as (_ & _ & Hm & _).
  change (38 :: nm ++ [59]) with ([38] ++ nm ++ [59]). rewrite !no_markup_app, Hm. reflexivity.
Qed.

Lemma spec_markup_iff s o :
  spec_markup s o = true <-> no_markup o = true /\ amps_ok o = true /\ ref_unescape o = s.
Proof. unfold spec_markup. rewrite !andb_true_iff, str_eqb_eq. tauto. Qed.

Lemma spec_markup_ref c e s o : is_ref c e -> spec_markup s o = true -> spec_markup (c :: s) (e ++ o) = true.
Proof.
  rewrite !spec_markup_iff. unfold ref_unescape. intros R (M & A & D).
  rewrite no_markup_app, (ref_markup c e R), (ref_amps c e o R), (ref_decode c e o R), D. auto.
Qed.

Lemma spec_markup_plain c s o : c <> 38 -> memN c markup_chars = false ->
  spec_markup s o = true -> spec_markup (c :: s) (c :: o) = true.
Proof.
  rewrite !spec_markup_iff. unfold ref_unescape, no_markup. intros Hc Hm (M & A & D).
  apply N.eqb_neq in Hc. cbn [forallb amps_ok ref_unescape_go]. rewrite Hm, Hc, M, A, D. auto.
Qed.

(* the nm with e = "&" nm ";", as the escape tables write their entries *)
Definition ref_name (e : str) : option str :=
  match e with
  | a :: body =>
      match rev body with
      | semi :: rnm => if (a =? 38) && (semi =? 59) then Some (rev rnm) else None
      | [] => None
      end
  | [] => None
  end.

Lemma ref_name_spec e nm : ref_name e = Some nm -> e = 38 :: nm ++ [59].
Proof.
  destruct e as [|a body]; [discriminate|]. cbn [ref_name].
  destruct (rev body) as [|semi rnm] eqn:Hr; [discriminate|].
  destruct (N.eqb_spec a 38) as [->|]; [|discriminate]. destruct (N.eqb_spec semi 59) as [->|]; [|discriminate].
  intros [= <-]. rewrite <- (rev_involutive body), Hr. reflexivity.
Qed.

Definition yields (o : option N) (c : N) : bool := match o with Some v => v =? c | None => false end.

Lemma yields_spec o c : yields o c = true -> o = Some c.
Proof. destruct o as [v|]; [|discriminate]. intros H. apply N.eqb_eq in H. congruence. Qed.

Definition entry_ok (c : N) (e : str) : bool :=
  match ref_name e with Some nm => name_ok nm && yields (ref_lookup nm) c | None => false end.

Lemma entry_ok_spec c e : entry_ok c e = true -> is_ref c e.
Proof.
  unfold entry_ok. destruct (ref_name e) as [nm|] eqn:He; [|discriminate].
  intros H. apply andb_true_iff in H as [Hok Hl]. exists nm. auto using ref_name_spec, yields_spec.
Qed.

(* each member of the class has a reference for itself in the table; '&' and the markup characters are members *)
Definition table_ok (cls : list N) (tbl : list (N * str)) : bool :=
  forallb (fun c => match assocN c tbl with Some e => entry_ok c e | None => false end) cls
  && forallb (fun m => memN m cls) (38 :: markup_chars).

Section SubChars.
  Variable cls : list N.
  Variable tbl : list (N * str).
  Hypothesis Htab : table_ok cls tbl = true.

  Let esc := sub_chars (fun c => memN c cls) (fun c => assocN c tbl).

  Lemma tab_entry c : memN c cls = true -> exists e, assocN c tbl = Some e /\ is_ref c e.
  Proof.
    intros Hc. apply andb_true_iff in Htab as [H _].
    apply memN_In in Hc. apply (proj1 (forallb_forall _ _) H) in Hc.
    destruct (assocN c tbl) as [e|]; [|discriminate]. exists e. auto using entry_ok_spec.
  Qed.

  Lemma tab_plain c : memN c cls = false -> c <> 38 /\ memN c markup_chars = false.
  Proof.
    intros Hc. apply andb_true_iff in Htab as [_ H].
    assert (Hn : ~ In c (38 :: markup_chars)).
    { intros Hin. apply (proj1 (forallb_forall _ _) H) in Hin. congruence. }
    apply not_in_cons in Hn as [Hne Hm]. split; [exact Hne | apply memN_false, Hm].
  Qed.

  Theorem sub_chars_ok s : exists o, esc s = Some o /\ spec_markup s o = true.
  Proof.
    induction s as [|c r (o & E & IH)]; [exists []; split; reflexivity|].
    unfold esc in *. cbn [sub_chars]. rewrite E. destruct (memN c cls) eqn:Hc.
    - destruct (tab_entry c Hc) as (e & -> & R). eauto using spec_markup_ref.
    - destruct (tab_plain c Hc) as [Hne Hm]. eauto using spec_markup_plain.
  Qed.

  Corollary sub_chars_total s : exists o, esc s = Some o.
  Proof. destruct (sub_chars_ok s) as (o & E & _). eauto. Qed.

  Corollary sub_chars_spec s o : esc s = Some o -> spec_markup s o = true.
  Proof. destruct (sub_chars_ok s) as (o' & E & H). rewrite E. intros [= <-]. exact H. Qed.
End SubChars.

(* table obligations, re-proved by computation whenever Gen/Filters.v changes *)
Lemma xml_table_ok : table_ok xml_escape_class xml_escapes = true.
Proof. vm_compute. reflexivity. Qed.

Lemma html_table_ok : table_ok html_class html_table = true.
Proof. vm_compute. reflexivity. Qed.

Theorem xml_escape_total s : exists o, xml_escape s = Some o.
Proof. apply (sub_chars_total _ _ xml_table_ok). Qed.

Theorem xml_escape_spec s o : xml_escape s = Some o -> spec_markup s o = true.
Proof. apply (sub_chars_spec _ _ xml_table_ok). Qed.

Theorem html_escape_total s : exists o, html_escape s = Some o.
Proof. apply (sub_chars_total _ _ html_table_ok). Qed.

Theorem html_escape_spec s o : html_escape s = Some o -> spec_markup s o = true.
Proof. apply (sub_chars_spec _ _ html_table_ok). Qed.

Lemma span_app (p : N -> bool) a x r :
  forallb p a = true -> p x = false -> span p (a ++ x :: r) = (a, x :: r).
Proof.
  induction a as [|y a IH]; cbn [app span forallb]; intros Ha Hx.
  - rewrite Hx. reflexivity.
  - apply andb_true_iff in Ha as [Hy Ha]. rewrite Hy, IH by assumption. reflexivity.
Qed.

Lemma skipn_name {A} (a : list A) x b : skipn (S (length a)) (a ++ x :: b) = b.
Proof. induction a as [|y a IH]; [reflexivity|exact IH]. Qed.

Lemma unescape_skip nm x rest : unescape_go (nm ++ x :: rest) (S (length nm)) = unescape_go rest 0.
Proof. induction nm as [|y nm IH]; [reflexivity|exact IH]. Qed.

Lemma unescape_ref body v rest :
  parse_charref (body ++ 59 :: rest) = Some (v, S (length body)) -> v < 1114112 ->
  unescape_go ((38 :: body ++ [59]) ++ rest) 0 = option_map (cons v) (unescape_go rest 0).
Proof.
  intros Hp Hv. apply N.ltb_lt in Hv. rewrite ref_shape. cbn [unescape_go].
  rewrite N.eqb_refl, Hp, Hv, unescape_skip. reflexivity.
Qed.

(* e is ASCII text that the reference decoder and html_entities_unescape both read as c *)
Definition read_back (c : N) (e : str) : Prop :=
  is_ref c e /\ forallb (fun x => x <? 128) e = true /\
  forall rest, unescape_go (e ++ rest) 0 = option_map (cons c) (unescape_go rest 0).

Lemma read_back_unescape c e : read_back c e -> html_entities_unescape e = Some [c].
Proof. intros (_ & _ & U). unfold html_entities_unescape. rewrite <- (app_nil_r e), U. reflexivity. Qed.

Lemma read_back_replacement c e : read_back c e -> spec_replacement c e = true.
Proof.
  intros (R & A & _). unfold spec_replacement, ref_unescape.
  rewrite A, <- (app_nil_r e), (ref_decode c e [] R), str_eqb_refl. destruct R as (nm & -> & _). reflexivity.
Qed.

(* a name that the third alternative of __characterrefs takes whole: (?!\d)[:\w][-.:\w]+, not starting with '#' *)
Definition scan_name (nm : str) : bool :=
  match nm with
  | c0 :: (_ :: _) as nm' => negb (c0 =? 35) && name_start c0 && forallb name_char nm'
  | _ => false
  end.

Lemma scan_name_spec nm : scan_name nm = true -> exists c0 c1 nm', nm = c0 :: c1 :: nm' /\
  (c0 =? 35) = false /\ name_start c0 = true /\ forallb name_char (c1 :: nm') = true.
Proof.
  destruct nm as [|c0 [|c1 nm']]; try discriminate. intros H.
  apply andb_true_iff in H as [H Hnc]. apply andb_true_iff in H as [Hc0 Hns]. apply negb_true_iff in Hc0.
  exists c0, c1, nm'. auto.
Qed.

Lemma parse_charref_name nm rest : scan_name nm = true ->
  parse_charref (nm ++ 59 :: rest) =
  Some (match assocS nm name2codepoint with Some v => v | None => 65533 end, S (length nm)).
Proof.
  intros H. destruct (scan_name_spec nm H) as (c0 & c1 & nm' & -> & Hc0 & Hns & Hnc).
  cbn [app parse_charref]. rewrite Hc0. unfold parse_name_ref. rewrite Hns.
  change (c1 :: nm' ++ 59 :: rest) with ((c1 :: nm') ++ 59 :: rest).
  rewrite (span_app name_char (c1 :: nm') 59 rest Hnc eq_refl), N.eqb_refl. reflexivity.
Qed.

Lemma apos_not_entity : assocS (s2l "apos") name2codepoint = None.
Proof. vm_compute. reflexivity. Qed.

(* ref_names is name2codepoint with "apos" put in front *)
Lemma ref_lookup_name nm c : scan_name nm = true -> assocS nm name2codepoint = Some c -> ref_lookup nm = Some c.
Proof.
  intros H Ha. destruct (scan_name_spec nm H) as (c0 & c1 & nm' & -> & Hc0 & _).
  unfold ref_lookup, ref_names. rewrite Hc0, assocS_cons.
  destruct (str_eqb (c0 :: c1 :: nm') (s2l "apos")) eqn:E; [|exact Ha].
  apply str_eqb_eq in E. rewrite E, apos_not_entity in Ha. discriminate.
Qed.

(* an entry (c, e) of codepoint2entity: e is "&" nm ";", both decoders take nm, name2codepoint has nm -> c, e is ASCII *)
Definition named_ok (ce : N * str) : bool :=
  let (c, e) := ce in
  match ref_name e with
  | Some nm => name_ok nm && scan_name nm && yields (assocS nm name2codepoint) c && (c <? 1114112)
               && forallb (fun x => x <? 128) e
  | None => false
  end.

Lemma named_ok_spec c e : named_ok (c, e) = true ->
  read_back c e /\ forall r o, has_entity c = true -> entity_exact (c :: r) (e ++ o) = entity_exact r o.
Proof.
  unfold named_ok. destruct (ref_name e) as [nm|] eqn:He; [|discriminate]. apply ref_name_spec in He as ->.
  intros H. apply andb_true_iff in H as [H Hascii]. apply andb_true_iff in H as [H Hc].
  apply andb_true_iff in H as [H Ha]. apply andb_true_iff in H as [Hok Hs].
  apply yields_spec in Ha. apply N.ltb_lt in Hc. destruct (name_ok_spec nm Hok) as (H59 & H38 & _ & Hlen).
  split; [split; [exists nm; auto using ref_lookup_name|]; split; [exact Hascii|]|].
  - intros rest. apply unescape_ref; [|exact Hc]. rewrite (parse_charref_name nm rest Hs), Ha. reflexivity.
  - intros r o Hc'. rewrite ref_shape. cbn [entity_exact].
    rewrite Hc', take_until_semi_name, Ha, N.eqb_refl, skipn_name by assumption. reflexivity.
Qed.

Lemma entity_table_ok : forallb named_ok codepoint2entity = true.
Proof. vm_compute. reflexivity. Qed.

Lemma entity_entry c e : assocN c codepoint2entity = Some e ->
  read_back c e /\ forall r o, entity_exact (c :: r) (e ++ o) = entity_exact r o.
Proof.
  intros H. assert (Hc : has_entity c = true) by (unfold has_entity; rewrite H; reflexivity).
  apply (assocN_In c e), (proj1 (forallb_forall _ _) entity_table_ok), named_ok_spec in H as (R & X). auto.
Qed.

Lemma amp_has_entity : has_entity 38 = true.
Proof. vm_compute. reflexivity. Qed.

Theorem entity_escape_exact s : entity_exact s (html_entities_escape s) = true.
Proof.
  induction s as [|c r IH]; [reflexivity|].
  unfold html_entities_escape in *. cbn [flat_map].
  destruct (assocN c codepoint2entity) as [e|] eqn:He.
  - destruct (entity_entry c e He) as (_ & ->). exact IH.
  - cbn [app entity_exact]. unfold has_entity. rewrite He, N.eqb_refl. exact IH.
Qed.

Theorem entity_roundtrip s : html_entities_unescape (html_entities_escape s) = Some s.
Proof.
  unfold html_entities_unescape.
  induction s as [|c r IH]; [reflexivity|].
  unfold html_entities_escape in *. cbn [flat_map].
  destruct (assocN c codepoint2entity) as [e|] eqn:He.
  - destruct (entity_entry c e He) as ((_ & _ & ->) & _). rewrite IH. reflexivity.
  - assert (Hne : c <> 38).
    { intros ->. pose proof amp_has_entity as A. unfold has_entity in A. rewrite He in A. discriminate. }
    cbn [app unescape_go]. apply N.eqb_neq in Hne. rewrite Hne, IH. reflexivity.
Qed.

Lemma mod64_lt c : c mod 64 < 64.
Proof. apply N.mod_lt. discriminate. Qed.

Lemma digits2 c : c = c / 64 * 64 + c mod 64.
Proof. rewrite N.mul_comm. apply N.div_mod'. Qed.

(* the quotients and remainders are atoms for lia: it only chains the instances of digits2 *)
Lemma digits3 c : c = c / 4096 * 4096 + (c / 64) mod 64 * 64 + c mod 64.
Proof.
  pose proof (digits2 c) as E0. pose proof (digits2 (c / 64)) as E1.
  rewrite N.div_div in E1 by discriminate. change (64 * 64) with 4096 in E1. lia.
Qed.

Lemma digits4 c : c = c / 262144 * 262144 + (c / 4096) mod 64 * 4096 + (c / 64) mod 64 * 64 + c mod 64.
Proof.
  pose proof (digits3 c) as E0. pose proof (digits2 (c / 4096)) as E2.
  rewrite N.div_div in E2 by discriminate. change (4096 * 64) with 262144 in E2. lia.
Qed.

(* c by its payload digits in base 64 (Unicode 3.9, the bit distribution of table 3-6), shortest form, no surrogates *)
Inductive utf8_form (c : N) : list N -> Prop :=
| Form1 : c < 128 -> utf8_form c [c]
| Form2 h l : c = h * 64 + l -> l < 64 -> 128 <= c -> c < 2048 -> utf8_form c [192 + h; 128 + l]
| Form3 h m l : c = h * 4096 + m * 64 + l -> m < 64 -> l < 64 -> 2048 <= c -> c < 65536 -> is_surrogate c = false ->
    utf8_form c [224 + h; 128 + m; 128 + l]
| Form4 h n m l : c = h * 262144 + n * 4096 + m * 64 + l -> n < 64 -> m < 64 -> l < 64 -> 65536 <= c -> c < 1114112 ->
    utf8_form c [240 + h; 128 + n; 128 + m; 128 + l].

(* a match, not an implication: inverting [Some [240 + c / 262144; ...] = Some bs] reduces through N.div *)
Lemma utf8_char_form c : match utf8_char c with Some bs => utf8_form c bs | None => True end.
Proof.
  unfold utf8_char.
  destruct (N.ltb_spec c 128); [apply Form1; assumption|].
  destruct (N.ltb_spec c 2048); [apply Form2; auto using digits2, mod64_lt|].
  destruct (N.ltb_spec c 65536).
  { destruct (is_surrogate c) eqn:Hs; [exact I|]. apply Form3; auto using digits3, mod64_lt. }
  destruct (N.ltb_spec c 1114112); [|exact I].
  apply Form4; auto using digits4, mod64_lt.
Qed.

Lemma cont_byte l : l < 64 -> is_cont (128 + l) = true.
Proof. unfold is_cont. lia. Qed.

Lemma payload k x : k + x - k = x.
Proof. rewrite N.add_comm. apply N.add_sub. Qed.

Lemma lead_ge k h n : n <= k -> (k + h <? n) = false.
Proof. lia. Qed.

(* In each multi-byte case the tail is held in r while the lead byte is classified: unfolding the decoder on the
   literal list would unfold it again on the tail in every branch that is not taken. *)
Lemma utf8_form_decode c bs rest : utf8_form c bs ->
  utf8_decode_go (bs ++ rest) 0 = option_map (cons c) (utf8_decode_go rest 0).
Proof.
  intros [H | h l E L Lo Hi | h m l E M L Lo Hi Hs | h n m l E Nn M L Lo Hi]; cbn [app].
  - cbn [utf8_decode_go]. apply N.ltb_lt in H. rewrite H. reflexivity.
  - set (r := (_ :: rest)). cbn [utf8_decode_go].
    rewrite !lead_ge by discriminate. replace (192 + h <? 224) with true by lia.   (* h < 32: h * 64 <= c < 2048 *)
    subst r. cbn [utf8_decode_go].
    rewrite (cont_byte l L), !payload, <- E.
    apply N.leb_le in Lo. rewrite Lo. reflexivity.
  - set (r := (_ :: _ :: rest)). cbn [utf8_decode_go].
    rewrite !lead_ge by discriminate. replace (224 + h <? 240) with true by lia.   (* h < 16: h * 4096 <= c < 65536 *)
    subst r. cbn [utf8_decode_go].
    rewrite (cont_byte m M), (cont_byte l L), !payload, <- E.
    apply N.leb_le in Lo. rewrite Lo, Hs. reflexivity.
  - set (r := (_ :: _ :: _ :: rest)). cbn [utf8_decode_go].
    rewrite !lead_ge by discriminate. replace (240 + h <? 248) with true by lia.   (* h <= 4: h * 262144 <= c < 1114112 *)
    subst r. cbn [utf8_decode_go].
    rewrite (cont_byte n Nn), (cont_byte m M), (cont_byte l L), !payload, <- E.
    apply N.leb_le in Lo. apply N.ltb_lt in Hi. rewrite Lo, Hi. reflexivity.
Qed.

Lemma utf8_form_bytes c bs : utf8_form c bs -> forallb (fun b => b <? 256) bs = true.
Proof.
  intros [H | h l E L Lo Hi | h m l E M L Lo Hi Hs | h n m l E Nn M L Lo Hi]; cbn [forallb]; lia.
Qed.

Lemma utf8_encode_cons c r bs : utf8_encode (c :: r) = Some bs ->
  exists b br, utf8_form c b /\ utf8_encode r = Some br /\ bs = b ++ br.
Proof.
  cbn [utf8_encode]. pose proof (utf8_char_form c) as F.
  destruct (utf8_char c) as [b|]; [|discriminate]. destruct (utf8_encode r) as [br|]; [|discriminate].
  intros [= <-]. eauto.
Qed.

Theorem utf8_roundtrip s bs : utf8_encode s = Some bs -> utf8_decode bs = Some s.
Proof.
  unfold utf8_decode. revert bs; induction s as [|c r IH]; intros bs H.
  - injection H as <-. reflexivity.
  - apply utf8_encode_cons in H as (b & br & F & Hr & ->).
    rewrite (utf8_form_decode c b br F), (IH br Hr). reflexivity.
Qed.

Lemma utf8_encode_bytes s bs : utf8_encode s = Some bs -> forallb (fun b => b <? 256) bs = true.
Proof.
  revert bs; induction s as [|c r IH]; intros bs H.
  - injection H as <-. reflexivity.
  - apply utf8_encode_cons in H as (b & br & F & Hr & ->).
    rewrite forallb_app, (utf8_form_bytes c b F), (IH br Hr). reflexivity.
Qed.

Theorem utf8_encode_total s : forallb is_scalar s = true -> exists bs, utf8_encode s = Some bs.
Proof.
  induction s as [|c r IH]; intros H; [exists []; reflexivity|].
  apply forallb_cons in H as [Hc Hr]. destruct (IH Hr) as [br Hbr].
  cbn [utf8_encode]. rewrite Hbr.
  unfold is_scalar in Hc. apply andb_true_iff in Hc as [Hlt Hs]. apply negb_true_iff in Hs.
  unfold utf8_char. rewrite Hs, Hlt.
  destruct (c <? 128); [eexists; reflexivity|].
  destruct (c <? 2048); [eexists; reflexivity|].
  destruct (c <? 65536); eexists; reflexivity.
Qed.

(* a property of the numbers below n, checked one by one *)
Lemma below (P : N -> Prop) n : Forall P (map N.of_nat (seq 0 n)) -> forall d, d < N.of_nat n -> P d.
Proof.
  intros F d Hd. apply (proj1 (Forall_forall _ _) F). rewrite <- (N2Nat.id d). apply in_map, in_seq. lia.
Qed.

Lemma hex_val_hexdigit : forall d, d < 16 -> hex_val (hexdigit_upper d) = Some d.
Proof. apply (below _ 16). repeat constructor. Qed.

Lemma hexdigit_url_safe : forall d, d < 16 -> url_safe_char (hexdigit_upper d) = true.
Proof. apply (below _ 16). repeat constructor. Qed.

Lemma nibbles b : b < 256 -> b / 16 < 16 /\ b mod 16 < 16 /\ b / 16 * 16 + b mod 16 = b.
Proof.
  intros Hb. split; [apply N.div_lt_upper_bound; [discriminate|exact Hb]|].
  split; [apply N.mod_lt; discriminate|]. rewrite N.mul_comm. symmetry. apply N.div_mod'.
Qed.

Lemma unreserved_not_special b : url_unreserved b = true -> (b =? 37) = false /\ (b =? 43) = false.
Proof. unfold url_unreserved, is_ascii_alnum, is_ascii_digit, is_ascii_upper, is_ascii_lower. lia. Qed.

Lemma quote_byte_ok b rest : b < 256 ->
  forallb url_safe_char (quote_byte b) = true /\
  unquote_plus_go (quote_byte b ++ rest) 0 = option_map (cons b) (unquote_plus_go rest 0).
Proof.
  intros Hb. unfold quote_byte. destruct (url_unreserved b) eqn:Hu.
  - destruct (unreserved_not_special b Hu) as [E1 E2]. cbn [app forallb unquote_plus_go].
    unfold url_safe_char. rewrite Hu, E1, E2. auto.
  - destruct (N.eqb_spec b 32) as [->|Hne]; [auto|]. destruct (nibbles b Hb) as (Hh & Hl & E).
    cbn [app forallb unquote_plus_go]. rewrite (hexdigit_url_safe _ Hh), (hexdigit_url_safe _ Hl).
    rewrite N.eqb_refl, (hex_val_hexdigit _ Hh), (hex_val_hexdigit _ Hl), E. auto.
Qed.

Lemma quote_plus_ok bs : forallb (fun b => b <? 256) bs = true ->
  forallb url_safe_char (quote_plus bs) = true /\ unquote_plus (quote_plus bs) = Some bs.
Proof.
  unfold unquote_plus, quote_plus. induction bs as [|b r IH]; intros H; [auto|].
  apply forallb_cons in H as [Hb Hr]. apply N.ltb_lt in Hb.
  destruct (quote_byte_ok b (flat_map quote_byte r) Hb) as [S U], (IH Hr) as [Sr Ur].
  cbn [flat_map]. rewrite forallb_app, S, Sr, U, Ur. auto.
Qed.

Theorem url_escape_spec s o : url_escape s = Some o -> spec_url s o = true.
Proof.
  unfold url_escape, spec_url. destruct (utf8_encode s) as [bs|] eqn:He; [|discriminate].
  intros [= <-]. destruct (quote_plus_ok bs (utf8_encode_bytes s bs He)) as [-> ->].
  rewrite (utf8_roundtrip s bs He), str_eqb_refl. reflexivity.
Qed.

Theorem url_escape_total s : forallb is_scalar s = true -> exists o, url_escape s = Some o.
Proof.
  intros H. destruct (utf8_encode_total s H) as [bs Hbs]. unfold url_escape. rewrite Hbs. eexists; reflexivity.
Qed.

Lemma lstrip_spec s : exists pre, s = pre ++ lstrip s /\ forallb is_strip_space pre = true /\
  match lstrip s with [] => true | c :: _ => negb (is_strip_space c) end = true.
Proof.
  induction s as [|c r (pre & E & F & H)]; [exists []; auto|].
  cbn [lstrip]. destruct (is_strip_space c) eqn:Hc.
  - exists (c :: pre). cbn [app forallb]. rewrite Hc, <- E. auto.
  - exists []. rewrite Hc. auto.
Qed.

Lemma skipn_app_len {A} (a b : list A) : skipn (length a) (a ++ b) = b.
Proof. induction a; cbn [length app skipn]; auto. Qed.

Lemma firstn_app_len {A} (a b : list A) : firstn (length a) (a ++ b) = a.
Proof. induction a; cbn [length app firstn]; [destruct b; reflexivity|f_equal; auto]. Qed.

(* s = pre ++ o ++ post with o the result: everything in spec_trim is then a statement about these three *)
Theorem trim_spec s : spec_trim s (trim s) = true.
Proof.
  unfold spec_trim, trim.
  destruct (lstrip_spec s) as (pre & Es & Fpre & Hl), (lstrip_spec (rev (lstrip s))) as (post & Er & Fpost & Ho).
  revert Es Hl Er Ho. generalize (lstrip (rev (lstrip s))) as ro. generalize (lstrip s) as l.
  intros l ro -> Hl Er Ho. apply (f_equal (@rev N)) in Er. rewrite rev_involutive, rev_app_distr in Er. subst l.
  rewrite firstn_app_len, skipn_app_len, str_eqb_refl, app_length, Nat.add_sub, firstn_app_len, Fpre, rev_involutive, Ho.
  assert (Fp : forallb is_strip_space (rev post) = true).
  { apply forallb_forall. intros x Hx. apply (proj1 (forallb_forall _ _) Fpost), in_rev, Hx. }
  rewrite Fp. destruct (rev ro); [reflexivity|]. cbn [app] in Hl. rewrite Hl. reflexivity.
Qed.

(* the value of a digit string, most significant digit first *)
Definition be_val (ds : list N) (acc : N) : N := fold_left (fun a d => a * 16 + d) ds acc.

Lemma hex_digits_val f : forall n, n < 16 ^ N.of_nat f -> be_val (rev (hex_digits_le f n)) 0 = n.
Proof.
  induction f as [|f IH]; intros n Hn; [apply N.lt_1_r in Hn; subst n; reflexivity|].
  assert (Hq : be_val (rev (if n / 16 =? 0 then [] else hex_digits_le f (n / 16))) 0 = n / 16).
  { destruct (N.eqb_spec (n / 16) 0) as [->|_]; [reflexivity|]. apply IH.
    apply N.div_lt_upper_bound; [discriminate|]. rewrite <- N.pow_succ_r', <- Nnat.Nat2N.inj_succ. exact Hn. }
  cbn [hex_digits_le rev]. unfold be_val in *. rewrite fold_left_app, Hq. cbn [fold_left].
  rewrite N.mul_comm. symmetry. apply N.div_mod'.
Qed.

Lemma hex_digits_small f : forall n, Forall (fun d => d < 16) (hex_digits_le f n).
Proof.
  induction f as [|f IH]; intros n; [constructor|]. cbn [hex_digits_le].
  constructor; [apply N.mod_lt; discriminate|]. destruct (n / 16 =? 0); [constructor|apply IH].
Qed.

Lemma hex_digits_len f : forall n, (length (hex_digits_le f n) <= f)%nat.
Proof.
  induction f as [|f IH]; intros n; [apply le_n|]. cbn [hex_digits_le length].
  destruct (n / 16 =? 0); [cbn [length]; lia|]. specialize (IH (n / 16)). lia.
Qed.

Lemma to_hex_digits c : c < 16 ^ 16 -> exists ds, to_hex c = map hexdigit_upper ds /\
  Forall (fun d => d < 16) ds /\ ds <> [] /\ (length ds <= 16)%nat /\ be_val ds 0 = c.
Proof.
  intros Hc. exists (rev (hex_digits_le 16 c)). split; [reflexivity|].
  split; [apply Forall_rev, hex_digits_small|]. split; [cbn [hex_digits_le rev]; auto using app_cons_not_nil|].
  split; [rewrite rev_length; apply hex_digits_len|]. apply hex_digits_val, Hc.
Qed.

Lemma forallb_hexdigits (p : N -> bool) ds : (forall d, d < 16 -> p (hexdigit_upper d) = true) ->
  Forall (fun d => d < 16) ds -> forallb p (map hexdigit_upper ds) = true.
Proof.
  intros Hp. induction 1 as [|d ds Hd _ IH]; [reflexivity|]. cbn [map forallb]. rewrite (Hp d Hd), IH. reflexivity.
Qed.

Lemma parse_hex_digits ds : Forall (fun d => d < 16) ds -> forall acc,
  parse_num 16 hex_val (map hexdigit_upper ds) acc = Some (be_val ds acc).
Proof.
  induction 1 as [|d ds Hd _ IH]; intros acc; [reflexivity|].
  cbn [map parse_num]. rewrite (hex_val_hexdigit d Hd), IH. reflexivity.
Qed.

Lemma hexchar_value_hexdigit : forall d, d < 16 -> hexchar_value (hexdigit_upper d) = d.
Proof. apply (below _ 16). repeat constructor. Qed.

Lemma digits_value_hex ds : Forall (fun d => d < 16) ds -> forall acc,
  digits_value 16 hexchar_value (map hexdigit_upper ds) acc = be_val ds acc.
Proof.
  induction 1 as [|d ds Hd _ IH]; intros acc; [reflexivity|].
  cbn [map digits_value]. rewrite (hexchar_value_hexdigit d Hd), IH. reflexivity.
Qed.

Lemma hexdigit_name_byte : forall d, d < 16 -> name_byte (hexdigit_upper d) = true.
Proof. apply (below _ 16). repeat constructor. Qed.

Lemma hexdigit_ascii : forall d, d < 16 -> (hexdigit_upper d <? 128) = true.
Proof. apply (below _ 16). repeat constructor. Qed.

Lemma is_hexchar_hexdigit : forall d, d < 16 -> is_hexchar_re (hexdigit_upper d) = true.
Proof. apply (below _ 16). repeat constructor. Qed.

Lemma ref_lookup_hex hs : hs <> [] -> ref_lookup (35 :: 120 :: hs) = parse_num 16 hex_val hs 0.
Proof. destruct hs; [congruence|reflexivity]. Qed.

Lemma parse_charref_hex hs rest : hs <> [] -> forallb is_hexchar_re hs = true ->
  parse_charref (35 :: 120 :: hs ++ 59 :: rest) = Some (digits_value 16 hexchar_value hs 0, S (S (S (length hs)))).
Proof.
  intros Hne Hh. cbn [parse_charref]. change (parse_dec_ref (120 :: ?t)) with (@None (N * nat)).
  unfold parse_hex_ref. change (120 =? 120) with true. cbv iota.
  rewrite (span_app is_hexchar_re hs 59 rest Hh eq_refl). destruct hs; [congruence|]. rewrite N.eqb_refl. reflexivity.
Qed.

(* "&#x" hex ";": both decoders read it as c, and it is ASCII.  For the library's own decoder this requires fix 36ccec6:
   upper-case hexadecimal digits. *)
Lemma numeric_ref_ok c : c < 1114112 -> read_back c (numeric_ref c).
Proof.
  intros Hc. destruct (to_hex_digits c (N.lt_trans c 1114112 (16 ^ 16) Hc eq_refl)) as (ds & E & Hds & Hne & Hlen & Hv).
  unfold numeric_ref. rewrite E. change (s2l "&#x" ++ ?h ++ [59]) with (38 :: (35 :: 120 :: h) ++ [59]).
  assert (Hm : map hexdigit_upper ds <> []) by (destruct ds; [congruence|discriminate]).
  split; [|split].
  - eexists. split; [reflexivity|]. split.
    + unfold name_ok. cbn [forallb length].
      rewrite (forallb_hexdigits name_byte ds hexdigit_name_byte Hds), map_length. apply Nat.ltb_lt. lia.
    + rewrite (ref_lookup_hex _ Hm), parse_hex_digits, Hv by assumption. reflexivity.
  - cbn [app forallb]. rewrite forallb_app, (forallb_hexdigits _ ds hexdigit_ascii Hds). reflexivity.
  - intros rest. apply unescape_ref; [|exact Hc]. cbn [app].
    rewrite (parse_charref_hex _ rest Hm (forallb_hexdigits _ ds is_hexchar_hexdigit Hds)), digits_value_hex, Hv by assumption.
    reflexivity.
Qed.

Lemma unescape_numeric_ref c : c < 1114112 -> html_entities_unescape (numeric_ref c) = Some [c].
Proof. intros Hc. exact (read_back_unescape _ _ (numeric_ref_ok c Hc)). Qed.

(* what XMLEntityEscaper.__escape writes for c: both decoders read it as c, and it is ASCII *)
Lemma escape_ref_ok c : c < 1114112 -> read_back c (escape_ref c).
Proof.
  intros Hc. unfold escape_ref. destruct (assocN c codepoint2entity) as [e|] eqn:He.
  - apply (entity_entry c e He).
  - apply numeric_ref_ok, Hc.
Qed.

(* the path of a non-ASCII code point through the tree of __escapable *)
Lemma escapable_nonascii c : 128 <= c -> c < 1114112 -> rmem c entity_escapable = true.
Proof.
  intros H1 H2. unfold entity_escapable. cbn [rmem].
  replace (c <? 60) with false by lia. replace (60 <? c) with true by lia.
  replace (c <? 128) with false by lia. replace (1114111 <? c) with false by lia. reflexivity.
Qed.

Lemma entity_escape_full_one c : 128 <= c -> c < 1114112 -> entity_escape_full [c] = Some (escape_ref c).
Proof.
  intros H1 H2. unfold entity_escape_full. cbn [flat_map]. rewrite (escapable_nonascii c H1 H2), app_nil_r.
  destruct (escape_ref_ok c H2) as (_ & -> & _). reflexivity.
Qed.

Theorem handler_replacement c : 128 <= c -> c < 1114112 ->
  exists rep, entity_escape_full [c] = Some rep /\ spec_replacement c rep = true.
Proof.
  intros H1 H2. exists (escape_ref c). split; [exact (entity_escape_full_one c H1 H2)|].
  exact (read_back_replacement _ _ (escape_ref_ok c H2)).
Qed.

Theorem handler_replacement_own_decoder c : 128 <= c -> c < 1114112 ->
  exists rep, entity_escape_full [c] = Some rep /\ html_entities_unescape rep = Some [c].
Proof.
  intros H1 H2. exists (escape_ref c). split; [exact (entity_escape_full_one c H1 H2)|].
  exact (read_back_unescape _ _ (escape_ref_ok c H2)).
Qed.

Definition ascii_encodable (enc : N -> option (list N)) : Prop :=
  forall c, c < 128 -> exists b, enc c = Some b.

Lemma encode_all_ascii enc s : ascii_encodable enc -> forallb (fun x => x <? 128) s = true ->
  exists b, encode_all enc s = Some b.
Proof.
  intros Ha. induction s as [|c r IH]; intros H; [exists []; reflexivity|].
  apply forallb_cons in H as [Hc Hr]. apply N.ltb_lt in Hc.
  destruct (Ha c Hc) as [b Hb]. destruct (IH Hr) as [br Hbr].
  cbn [encode_all]. rewrite Hb, Hbr. eexists; reflexivity.
Qed.

Theorem handler_total enc s : ascii_encodable enc -> forallb (fun c => c <? 1114112) s = true ->
  exists b, encode_replace enc s = Some b.
Proof.
  intros Ha. induction s as [|c r IH]; intros H; [exists []; reflexivity|].
  apply forallb_cons in H as [Hc Hr]. apply N.ltb_lt in Hc.
  destruct (IH Hr) as [br Hbr]. cbn [encode_replace]. rewrite Hbr.
  destruct (enc c) as [b|] eqn:Hb; [eexists; reflexivity|].
  assert (H128 : 128 <= c).
  { destruct (N.lt_ge_cases c 128) as [Hlt|Hge]; [|exact Hge]. destruct (Ha c Hlt) as [b Hb']. congruence. }
  rewrite (entity_escape_full_one c H128 Hc). destruct (escape_ref_ok c Hc) as (_ & A & _).
  destruct (encode_all_ascii enc _ Ha A) as [b2 ->]. eexists; reflexivity.
Qed.

(* decode.<enc> returns a str for str and for every other object; for bytes it is the codec's answer *)
Theorem decode_returns_str codec x :
  match x with
  | PStr s => decode_filter codec x = Some s
  | POther s => decode_filter codec x = Some s
  | PBytes b => decode_filter codec x = codec b
  end.
Proof. destruct x; reflexivity. Qed.
