(* Proofs/FilterPipeProofs.v -- C02: which of the lists D, P, L make up the filter pipeline (pipeline_cases, of which the
   order of application and the effect of "n" are instances), and what the flag names denote *)
From MakoV Require Import Lib.Str Gen.Filters Gen.Template Model.FilterPipe.
Open Scope N_scope.

Lemma drop_n_app a b : drop_n (a ++ b) = drop_n a ++ drop_n b.
Proof. unfold drop_n. apply filter_app. Qed.

Lemma has_n_app a b : has_n (a ++ b) = has_n a || has_n b.
Proof. unfold has_n. apply existsb_app. Qed.

(* an "n" among the expression's filters switches off the page's and the defaults, one among the page's the defaults *)
Theorem pipeline_cases D P L :
  pipeline D (Some P) L true =
    if has_n L then drop_n L
    else if has_n P then drop_n P ++ drop_n L
    else drop_n D ++ drop_n P ++ drop_n L.
Proof.
  unfold pipeline, merged. destruct (has_n L) eqn:HL; [reflexivity|].
  rewrite has_n_app, HL, orb_false_r. destruct (has_n P) eqn:HP.
  - rewrite andb_false_r. apply drop_n_app.
  - rewrite andb_true_r. destruct D; cbn [negb]; rewrite !drop_n_app; reflexivity.
Qed.

(* no page tag is a page tag without filters *)
Theorem pipeline_no_page D L :
  pipeline D None L true = if has_n L then drop_n L else drop_n D ++ drop_n L.
Proof. exact (pipeline_cases D [] L). Qed.

(* filter= on defs, blocks and <%text>, and buffer_filters: no defaults, no page filters *)
Theorem pipeline_nonexpr D P L : pipeline D P L false = drop_n L.
Proof. unfold pipeline, merged. destruct (has_n L); reflexivity. Qed.

(* the order of application: D first, then P, then L, each left to right *)
Theorem pipeline_order {V} (env : str -> V -> V) D P L v :
  has_n L = false -> has_n P = false ->
  apply_all env (pipeline D (Some P) L true) v =
  apply_all env (drop_n L) (apply_all env (drop_n P) (apply_all env (drop_n D) v)).
Proof.
  intros HL HP. rewrite pipeline_cases, HL, HP. unfold apply_all. rewrite !fold_left_app. reflexivity.
Qed.

Theorem n_in_expression_disables_both {V} (env : str -> V -> V) D P L v :
  has_n L = true -> apply_all env (pipeline D (Some P) L true) v = apply_all env (drop_n L) v.
Proof. intros HL. rewrite pipeline_cases, HL. reflexivity. Qed.

Theorem n_in_page_disables_default {V} (env : str -> V -> V) D P L v :
  has_n L = false -> has_n P = true ->
  apply_all env (pipeline D (Some P) L true) v = apply_all env (drop_n L) (apply_all env (drop_n P) v).
Proof. intros HL HP. rewrite pipeline_cases, HL, HP. unfold apply_all. rewrite fold_left_app. reflexivity. Qed.

(* without configuration the default filter list is [str] *)
Theorem default_is_str : default_default_filters = [s2l "str"].
Proof. vm_compute. reflexivity. Qed.

(* the built-in flag names denote the documented functions; every other name denotes itself *)
Theorem flags_denote_documented :
  locate_encode (s2l "h") = s2l "filters.html_escape" /\
  locate_encode (s2l "x") = s2l "filters.xml_escape" /\
  locate_encode (s2l "u") = s2l "filters.url_escape" /\
  locate_encode (s2l "trim") = s2l "filters.trim" /\
  locate_encode (s2l "entity") = s2l "filters.html_entities_escape" /\
  locate_encode (s2l "str") = s2l "str" /\
  locate_encode (s2l "unicode") = s2l "str" /\
  locate_encode (s2l "decode.utf8") = s2l "filters.decode.utf8".
Proof. repeat split; reflexivity. Qed.

Theorem other_names_denote_themselves name :
  is_decode name = false -> assocS name default_escapes = None -> locate_encode name = name.
Proof. intros H1 H2. unfold locate_encode. rewrite H1, H2. reflexivity. Qed.
