(* Proofs/LookupProofs.v -- C14: template lookup over time.  The LRU bound is an invariant of every operation (ok_len); it
   and the eviction order rest on sort_desc giving a sorted permutation.  What one get_template returns is read off after
   get_hit / get_miss, which say what the call reduces to when the collection has the URI and when it has not. *)
From Coq Require Import Permutation Sorted.
From MakoV Require Import Lib.Str Gen.Util Model.Lookup.
Open Scope N_scope.

Lemma coll_get_del_same u l : coll_get u (coll_del u l) = None.
Proof.
  induction l as [|[u' e] r IH]; [reflexivity|]. cbn [coll_del].
  destruct (N.eqb_spec u u') as [->|Hne]; [exact IH|].
  cbn [coll_get]. apply N.eqb_neq in Hne. rewrite Hne. exact IH.
Qed.

Lemma coll_del_length u l : (length (coll_del u l) <= length l)%nat.
Proof.
  induction l as [|[u' e] r IH]; [simpl; lia|]. cbn [coll_del].
  destruct (u =? u'); cbn [length]; lia.
Qed.

Lemma coll_update_length u f l : length (coll_update u f l) = length l.
Proof.
  induction l as [|[u' e] r IH]; [reflexivity|]. cbn [coll_update].
  destruct (u =? u'); cbn [length]; [reflexivity|rewrite IH; reflexivity].
Qed.

Lemma coll_get_update_same u f l e : coll_get u l = Some e -> coll_get u (coll_update u f l) = Some (f e).
Proof.
  induction l as [|[u' e'] r IH]; [discriminate|]. cbn [coll_get coll_update].
  destruct (u =? u') eqn:E.
  - intros [= ->]. cbn [coll_get]. rewrite E. reflexivity.
  - intros H. cbn [coll_get]. rewrite E. apply IH. exact H.
Qed.

Lemma coll_get_app_new u l e : coll_get u l = None -> coll_get u (l ++ [(u, e)]) = Some e.
Proof.
  induction l as [|[u' e'] r IH]; cbn [app coll_get].
  - rewrite N.eqb_refl. reflexivity.
  - destruct (u =? u'); [discriminate|exact IH].
Qed.

Lemma filter_length_perm {A} (f : A -> bool) l l' : Permutation l l' -> length (filter f l) = length (filter f l').
Proof.
  induction 1 as [|x l l' _ IH|x y l|l l' l'' _ IH1 _ IH2]; cbn [filter].
  - reflexivity.
  - destruct (f x); cbn [length]; rewrite IH; reflexivity.
  - destruct (f x), (f y); reflexivity.
  - rewrite IH1. exact IH2.
Qed.

Lemma insert_desc_perm x l : Permutation (insert_desc x l) (x :: l).
Proof.
  induction l as [|y r IH]; cbn [insert_desc]; [apply Permutation_refl|].
  destruct (e_stamp (snd y) <? e_stamp (snd x)); [apply Permutation_refl|].
  eapply Permutation_trans; [apply perm_skip; exact IH|apply perm_swap].
Qed.

Lemma sort_desc_perm l : Permutation (sort_desc l) l.
Proof.
  induction l as [|x r IH]; [apply Permutation_refl|]. cbn [sort_desc fold_right].
  eapply Permutation_trans; [apply insert_desc_perm|]. apply perm_skip. exact IH.
Qed.

(* what survives a filter that rejects everything past the first n elements *)
Lemma filter_length_firstn {A} (f : A -> bool) n : forall l,
  (forall x, In x (skipn n l) -> f x = false) -> (length (filter f l) <= n)%nat.
Proof.
  induction n as [|n IH]; intros l H.
  - induction l as [|x r IHr]; [apply le_n|]. cbn [filter]. rewrite (H x (or_introl eq_refl)).
    apply IHr. intros y Hy. apply H. right. exact Hy.
  - destruct l as [|x r]; [cbn; lia|]. cbn [filter]. specialize (IH r H).
    destruct (f x); cbn [length]; lia.
Qed.

Lemma evict_length cp (l : list (N * entry)) :
  let doomed := map fst (skipn (N.to_nat cp) (sort_desc l)) in
  (length (filter (fun ue => negb (memN (fst ue) doomed)) l) <= N.to_nat cp)%nat.
Proof.
  intros doomed. rewrite (filter_length_perm _ l (sort_desc l)) by (apply Permutation_sym, sort_desc_perm).
  apply filter_length_firstn. intros x Hx. apply negb_false_iff, memN_In, in_map. exact Hx.
Qed.

Definition newer_eq (a b : N * entry) : Prop := e_stamp (snd b) <= e_stamp (snd a).

Lemma insert_desc_sorted x l : StronglySorted newer_eq l -> StronglySorted newer_eq (insert_desc x l).
Proof.
  induction 1 as [|z r Hs IH Hall]; cbn [insert_desc].
  - constructor; constructor.
  - destruct (e_stamp (snd z) <? e_stamp (snd x)) eqn:E.
    + apply N.ltb_lt in E. constructor; [constructor; assumption|].
      constructor; [unfold newer_eq; lia|]. rewrite Forall_forall in *. intros y Hy.
      specialize (Hall y Hy). unfold newer_eq in *. lia.
    + apply N.ltb_ge in E. constructor; [exact IH|].
      apply (Permutation_Forall (Permutation_sym (insert_desc_perm x r))). constructor; [exact E|exact Hall].
Qed.

Lemma sort_desc_sorted l : StronglySorted newer_eq (sort_desc l).
Proof.
  induction l as [|x r IH]; [constructor|]. cbn [sort_desc fold_right]. apply insert_desc_sorted. exact IH.
Qed.

Lemma sorted_app {A} (R : A -> A -> Prop) a b :
  StronglySorted R (a ++ b) -> forall x y, In x a -> In y b -> R x y.
Proof.
  induction a as [|z a IH]; cbn [app]; intros H x y Hx Hy; [destruct Hx|].
  apply StronglySorted_inv in H as [Hs Hall]. destruct Hx as [<-|Hx]; [|exact (IH Hs x y Hx Hy)].
  rewrite Forall_forall in Hall. apply Hall, in_or_app. right. exact Hy.
Qed.

(* the entries _manage_size deletes (those past the first cp of [sort_desc], see [evict_length]) are never more recently
   stamped than the ones it keeps *)
Theorem lru_evicts_least_recent cp l x y :
  In x (firstn (N.to_nat cp) (sort_desc l)) -> In y (skipn (N.to_nat cp) (sort_desc l)) ->
  e_stamp (snd y) <= e_stamp (snd x).
Proof.
  pose proof (sort_desc_sorted l) as H. rewrite <- (firstn_skipn (N.to_nat cp)) in H. exact (sorted_app _ _ _ H x y).
Qed.

Lemma over_threshold_false cp n : over_threshold cp n = false <-> 2 * N.of_nat n <= 3 * cp.
Proof. unfold over_threshold, lru_threshold_den, lru_threshold_num. rewrite N.ltb_ge. lia. (* num / den is 1/2 *) Qed.

Lemma manage_size_ok cp l : 2 * N.of_nat (length (manage_size cp l)) <= 3 * cp.
Proof.
  unfold manage_size. destruct (over_threshold cp (length l)) eqn:E; [|apply over_threshold_false; exact E].
  pose proof (evict_length cp l). cbv zeta in *. lia.
Qed.

Definition ok_len (cp : N) (s : st) : Prop := 2 * N.of_nat (length (coll s)) <= 3 * cp.

Section Bound.
  Variable c : cfg.
  Variable cp : N.
  Hypothesis Hcap : cap c = Some cp.

  Lemma ok_read s u : ok_len cp s -> ok_len cp (snd (coll_read c s u)).
  Proof.
    unfold coll_read, ok_len. intros H. destruct (coll_get u (coll s)); [|exact H].
    rewrite Hcap. cbn [snd coll]. rewrite coll_update_length. exact H.
  Qed.

  Lemma ok_pop s u : ok_len cp s -> ok_len cp (coll_pop s u).
  Proof. unfold ok_len, coll_pop. cbn [coll]. pose proof (coll_del_length u (coll s)). lia. Qed.

  Lemma ok_store s u e : ok_len cp (coll_store c s u e).
  Proof. unfold ok_len, coll_store. rewrite Hcap. cbn [coll]. apply manage_size_ok. Qed.

  Lemma ok_construct s k : ok_len cp s -> ok_len cp (snd (construct_from_file s k)).
  Proof.
    unfold construct_from_file. intros H. destruct (file_get k (files s)) as [f|]; [|exact H].
    destruct (negb (freadable f)); [exact H|]. destruct (negb (fcompiles f)); exact H.
  Qed.

  Lemma ok_load s k u : ok_len cp s -> ok_len cp (snd (load c s k u)).
  Proof.
    intros H. unfold load. pose proof (ok_read s u H) as Hr.
    destruct (coll_read c s u) as [[e|] s1]; [exact Hr|].
    pose proof (ok_construct s1 k Hr) as Hc.
    destruct (construct_from_file s1 k) as [[e| |] s2]; [apply ok_store|apply ok_pop; exact Hc..].
  Qed.

  Lemma ok_check s u e : ok_len cp s -> ok_len cp (snd (check c s u e)).
  Proof.
    intros H. unfold check. destruct (e_src e) as [k|]; [|exact H].
    destruct (file_get k (files s)) as [f|]; [|apply ok_pop; exact H].
    destruct (fmtime f * 1000 <=? e_ctime e); [exact H|].
    pose proof (ok_load (coll_pop s u) k u (ok_pop s u H)) as Hl.
    destruct (load c (coll_pop s u) k u) as [[] s']; exact Hl.
  Qed.

  Lemma ok_get s u : ok_len cp s -> ok_len cp (snd (get_template c s u)).
  Proof.
    intros H. unfold get_template. pose proof (ok_read s u H) as Hr.
    destruct (coll_read c s u) as [[e|] s1]; cbn [snd] in *.
    - destruct (checks c); [apply ok_check; exact Hr|exact Hr].
    - destruct (first_dir (files s1) u 0 (N.to_nat (ndirs c))); [apply ok_load; exact Hr|exact Hr].
  Qed.

  Lemma ok_step s o : ok_len cp s -> ok_len cp (snd (step c s o)).
  Proof.
    intros H. destruct o; cbn [step]; try exact H.
    - (* SetReadable *) destruct (file_get (d, n) (files s)); exact H.
    - (* SetCompiles *) destruct (file_get (d, n) (files s)); exact H.
    - (* Get *) apply ok_get. exact H.
    - (* Has *) pose proof (ok_get s u H) as Hg. destruct (get_template c s u) as [[] s']; exact Hg.
    - (* PutString *) apply ok_store.
    - (* PutTemplate *) destruct (coll_get from (coll s)); [apply ok_store|exact H].
  Qed.

  Lemma ok_run ops : forall s, ok_len cp s -> ok_len cp (snd (run c s ops)).
  Proof.
    induction ops as [|o r IH]; intros s H; [exact H|]. cbn [run].
    pose proof (ok_step s o H) as Hs. destruct (step c s o) as [x s1]. cbn [snd] in Hs.
    specialize (IH s1 Hs). destruct (run c s1 r) as [xs s2]. exact IH.
  Qed.

  Theorem lru_bound ops : (2 * N.of_nat (length (coll (final c ops))) <= 3 * cp).
  Proof. apply (ok_run ops init). unfold ok_len. cbn [init coll length]. lia. Qed.
End Bound.


Definition unchanged_on_disk (e : entry) (s : st) : Prop :=
  match e_src e with
  | None => True
  | Some k => exists f, file_get k (files s) = Some f /\ fmtime f * 1000 <= e_ctime e
  end.

(* a hit: the entry is handed to _check, or returned as it is, in a state that differs from s in the LRU stamps at most *)
Lemma get_hit c s u e : coll_get u (coll s) = Some e ->
  exists s1, get_template c s u = (if checks c then check c s1 u e else (ROk (e_tid e) (e_ver e), s1)) /\
    files s1 = files s /\ constructions s1 = constructions s /\ next_tid s1 = next_tid s.
Proof. intros H. unfold get_template, coll_read. rewrite H. destruct (cap c); eexists; repeat split. Qed.

Lemma get_miss c s u : coll_get u (coll s) = None ->
  get_template c s u =
  match first_dir (files s) u 0 (N.to_nat (ndirs c)) with Some k => load c s k u | None => (RTopLevel, s) end.
Proof. intros H. unfold get_template, coll_read. rewrite H. reflexivity. Qed.

Lemma load_miss c s k u : coll_get u (coll s) = None ->
  load c s k u =
  match construct_from_file s k with
  | (BOk e, s2) => (ROk (e_tid e) (e_ver e), coll_store c s2 u e)
  | (BCompileErr, s2) => (RCompileErr, coll_pop s2 u)
  | (BOSError, s2) => (ROSError, coll_pop s2 u)
  end.
Proof. intros H. unfold load, coll_read. rewrite H. reflexivity. Qed.

(* stable identity: nothing changed on disk (or checks are off, or the entry has no file)
   => the very same object, no construction *)
Theorem get_stable c s u e :
  coll_get u (coll s) = Some e ->
  (checks c = false \/ unchanged_on_disk e s) ->
  fst (get_template c s u) = ROk (e_tid e) (e_ver e) /\
  constructions (snd (get_template c s u)) = constructions s.
Proof.
  intros He Hwhy. destruct (get_hit c s u e He) as (s1 & -> & Hf & Hc & _).
  destruct (checks c); [|split; [reflexivity|exact Hc]].
  destruct Hwhy as [Hwhy|Hwhy]; [discriminate|].
  unfold check. unfold unchanged_on_disk in Hwhy. destruct (e_src e) as [k|]; [|split; [reflexivity|exact Hc]].
  destruct Hwhy as (f & Hfile & Hm). apply N.leb_le in Hm. rewrite Hf, Hfile, Hm. split; [reflexivity|exact Hc].
Qed.

Definition healthy (f : file) : Prop := freadable f = true /\ fcompiles f = true.

Lemma construct_ok s k f : file_get k (files s) = Some f -> healthy f ->
  exists s2, construct_from_file s k =
    (BOk {| e_tid := next_tid s; e_src := Some k; e_ver := fver f; e_ctime := clock s; e_stamp := 0 |}, s2).
Proof. intros Hf [Hr Hc]. unfold construct_from_file. rewrite Hf, Hr, Hc. eexists. reflexivity. Qed.

Lemma load_fresh c s k u f : coll_get u (coll s) = None -> file_get k (files s) = Some f -> healthy f ->
  fst (load c s k u) = ROk (next_tid s) (fver f).
Proof.
  intros Hn Hf Hh. rewrite (load_miss c s k u Hn). destruct (construct_ok s k f Hf Hh) as (s2 & ->). reflexivity.
Qed.

(* freshness: the file is newer (in whole seconds) than the compiled version => a new
   template compiled from the current content *)
Theorem get_fresh c s u e k f :
  checks c = true ->
  coll_get u (coll s) = Some e -> e_src e = Some k ->
  file_get k (files s) = Some f -> healthy f ->
  e_ctime e < fmtime f * 1000 ->
  fst (get_template c s u) = ROk (next_tid s) (fver f).
Proof.
  intros Hck He Hsrc Hf Hh Hnew. destruct (get_hit c s u e He) as (s1 & -> & Hfiles & _ & Htid).
  apply N.leb_gt in Hnew. rewrite Hck. unfold check. rewrite Hsrc, Hfiles, Hf, Hnew.
  (* the stale entry is popped, so this is a load on a miss *)
  assert (Hres : fst (load c (coll_pop s1 u) k u) = ROk (next_tid (coll_pop s1 u)) (fver f)).
  { apply load_fresh; [apply coll_get_del_same|cbn [coll_pop files]; rewrite Hfiles; exact Hf|exact Hh]. }
  destruct (load c (coll_pop s1 u) k u) as [r s']. cbn [fst] in Hres. subst r.
  cbn [coll_pop next_tid]. rewrite Htid. reflexivity.
Qed.

Lemma first_dir_spec fs n fuel : forall d0 k,
  first_dir fs n d0 fuel = Some k ->
  snd k = n /\ d0 <= fst k /\ (exists f, file_get k fs = Some f) /\
  forall d', d0 <= d' -> d' < fst k -> file_get (d', n) fs = None.
Proof.
  induction fuel as [|fuel IH]; intros d0 k H; [discriminate|]. cbn [first_dir] in H.
  destruct (file_get (d0, n) fs) as [f|] eqn:E.
  - injection H as <-. cbn [fst snd]. repeat split; [lia|exists f; exact E|]. intros d' H1 H2. lia.
  - destruct (IH (d0 + 1) k H) as [H1 [H2 [H3 H4]]]. repeat split; [exact H1|lia|exact H3|].
    intros d' Hd1 Hd2. destruct (N.eq_dec d' d0) as [->|Hne]; [exact E|]. apply H4; lia.
Qed.

Lemma first_dir_none fs n fuel : forall d0,
  first_dir fs n d0 fuel = None <->
  forall d', d0 <= d' -> d' < d0 + N.of_nat fuel -> file_get (d', n) fs = None.
Proof.
  induction fuel as [|fuel IH]; intros d0; cbn [first_dir]; [split; [lia|reflexivity]|].
  destruct (file_get (d0, n) fs) eqn:E.
  - split; [discriminate|]. intros H. rewrite (H d0) in E by lia. discriminate.
  - rewrite IH. split; intros H d' H1 H2.
    + destruct (N.eq_dec d' d0) as [->|Hne]; [exact E|]. apply H; lia.
    + apply H; lia.
Qed.

Lemma first_dir_complete fs n fuel : forall d0 d f,
  d0 <= d -> d < d0 + N.of_nat fuel -> file_get (d, n) fs = Some f ->
  exists k, first_dir fs n d0 fuel = Some k.
Proof.
  intros d0 d f H1 H2 Hf. destruct (first_dir fs n d0 fuel) eqn:E; [eexists; reflexivity|].
  rewrite (proj1 (first_dir_none fs n fuel d0) E d H1 H2) in Hf. discriminate.
Qed.

(* an uncached URI is served from the first configured directory that contains it *)
Theorem miss_first_directory c s u k f :
  coll_get u (coll s) = None ->
  first_dir (files s) u 0 (N.to_nat (ndirs c)) = Some k ->
  file_get k (files s) = Some f -> healthy f ->
  fst (get_template c s u) = ROk (next_tid s) (fver f) /\
  (forall d', d' < fst k -> file_get (d', u) (files s) = None).
Proof.
  intros Hn Hfd Hf Hh. split.
  - rewrite (get_miss c s u Hn), Hfd. apply (load_fresh c s k u f Hn Hf Hh).
  - destruct (first_dir_spec _ _ _ _ _ Hfd) as [_ [_ [_ H]]]. intros d' Hd. apply H; [lia|exact Hd].
Qed.

Theorem missing_is_toplevel c s u :
  coll_get u (coll s) = None ->
  (forall d, d < ndirs c -> file_get (d, u) (files s) = None) ->
  fst (get_template c s u) = RTopLevel /\ fst (step c s (Has u)) = RBool false.
Proof.
  intros Hn Hnone.
  assert (E : get_template c s u = (RTopLevel, s)).
  { rewrite (get_miss c s u Hn), (proj2 (first_dir_none (files s) u (N.to_nat (ndirs c)) 0)); [reflexivity|].
    intros d _ Hd. apply Hnone. rewrite N2Nat.id in Hd. exact Hd. }
  split; [rewrite E; reflexivity|]. cbn [step]. rewrite E. reflexivity.
Qed.

(* a cached template whose file has vanished: TemplateLookupException, entry dropped *)
Theorem vanished_is_lookup_exception c s u e k :
  checks c = true -> coll_get u (coll s) = Some e -> e_src e = Some k ->
  file_get k (files s) = None ->
  fst (get_template c s u) = RLookupExc /\ coll_get u (coll (snd (get_template c s u))) = None.
Proof.
  intros Hck He Hsrc Hf. destruct (get_hit c s u e He) as (s1 & -> & Hfiles & _).
  rewrite Hck. unfold check. rewrite Hsrc, Hfiles, Hf. split; [reflexivity|apply coll_get_del_same].
Qed.

(* a failed compilation leaves no entry behind, so that the corrected file loads
   (by miss_first_directory) *)
Theorem failed_compile_leaves_no_entry c s u k f :
  coll_get u (coll s) = None ->
  first_dir (files s) u 0 (N.to_nat (ndirs c)) = Some k ->
  file_get k (files s) = Some f -> freadable f = true -> fcompiles f = false ->
  fst (get_template c s u) = RCompileErr /\ coll_get u (coll (snd (get_template c s u))) = None /\
  files (snd (get_template c s u)) = files s.
Proof.
  intros Hn Hfd Hf Hr Hc. rewrite (get_miss c s u Hn), Hfd, (load_miss c s k u Hn).
  unfold construct_from_file. rewrite Hf, Hr, Hc. repeat split. apply coll_get_del_same.
Qed.

(* filesystem_checks off: a loaded template keeps being returned whatever happens on disk *)
Theorem checks_off_is_sticky c s u e :
  checks c = false -> coll_get u (coll s) = Some e ->
  fst (get_template c s u) = ROk (e_tid e) (e_ver e).
Proof. intros Hck He. apply (get_stable c s u e He). left; exact Hck. Qed.

Lemma coll_store_get c s u e : cap c = None -> coll_get u (coll (coll_store c s u e)) = Some e.
Proof.
  intros Hcap. unfold coll_store. rewrite Hcap. cbn [coll]. destruct (coll_get u (coll s)) eqn:E.
  - apply (coll_get_update_same u (fun _ => e) _ _ E).
  - apply coll_get_app_new. exact E.
Qed.

(* put_string entries are served under their URI (unbounded collection) *)
Theorem put_is_served c s u v :
  cap c = None ->
  fst (get_template c (snd (step c s (PutString u v))) u) = ROk (next_tid s) v.
Proof.
  intros Hcap. cbn [step snd].
  apply (get_stable c _ u {| e_tid := next_tid s; e_src := None; e_ver := v; e_ctime := clock s; e_stamp := 0 |}).
  - apply coll_store_get. exact Hcap.
  - right. exact I.
Qed.

(* eviction is not transparent for put_string entries (refuted; the witness is the known finding C14-F1, replayed on the
   implementation by the harness) *)
Definition c1 : cfg := {| checks := true; cap := Some 1; ndirs := 1 |}.
Theorem eviction_transparent_refuted :
  exists ops u v, In (PutString u v) ops /\
    (forall d n ver m, ~ In (Write d n ver m) ops) /\
    fst (get_template c1 (final c1 ops) u) = RTopLevel.
Proof.
  exists [PutString 0 1; PutString 1 2; PutString 2 3], 0, 1.
  split; [left; reflexivity|]. split.
  - intros d n ver m [H|[H|[H|[]]]]; discriminate.
  - vm_compute. reflexivity.
Qed.
