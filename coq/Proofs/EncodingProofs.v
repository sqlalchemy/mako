(* Proofs/EncodingProofs.v -- C18: the coding-comment matcher is inverted stage by stage (span_e, try_at, find_last);
   the decision table and the output choice are read off decide and render_out row by row *)
From MakoV Require Import Lib.Str Model.Encoding.
Open Scope N_scope.

Inductive span_spec (p : N -> bool) : str -> str * str -> Prop :=
| span_intro a b : forallb p a = true -> span_spec p (a ++ b) (a, b).

Lemma span_e_spec p s : span_spec p s (span_e p s).
Proof.
  induction s as [|c r IH]; cbn [span_e]; [exact (span_intro p [] [] eq_refl)|].
  destruct (p c) eqn:E; [|exact (span_intro p [] (c :: r) eq_refl)].
  destruct IH as [a b Hf]. apply (span_intro p (c :: a) b). cbn [forallb]. rewrite E. exact Hf.
Qed.

Definition no_lf (s : str) : Prop := forallb (fun x => negb (x =? LF)) s = true.

Lemma try_at_shape s name rest : try_at s = Some (name, rest) ->
  exists sep ws post nl,
    s = s2l "coding" ++ [sep] ++ ws ++ name ++ post ++ [nl] ++ rest /\
    (sep = cCOLONe \/ sep = cEQe) /\ forallb is_blank_e ws = true /\
    name <> [] /\ forallb is_namechar_e name = true /\ no_lf post.
Proof.
  unfold try_at. destruct (strip_prefix (s2l "coding") s) as [[|e r1]|] eqn:Ep; try discriminate.
  apply strip_prefix_spec in Ep. destruct ((e =? cCOLONe) || (e =? cEQe)) eqn:Es; [|discriminate].
  destruct (span_e_spec is_blank_e r1) as [ws r2 H1].
  destruct (span_e_spec is_namechar_e r2) as [[|n0 nm] r3 H2]; [discriminate|].
  destruct (span_e_spec (fun x => negb (x =? LF)) r3) as [post [|nl rest'] H3]; [discriminate|].
  intros [= <- <-]. exists e, ws, post, nl. repeat split; try assumption.
  - apply orb_true_iff in Es as [Es|Es]; apply N.eqb_eq in Es; [left|right]; exact Es.
  - discriminate.
Qed.

Lemma no_lf_cons c s : no_lf (c :: s) <-> (c =? LF) = false /\ no_lf s.
Proof. unfold no_lf. cbn [forallb]. rewrite andb_true_iff, negb_true_iff. reflexivity. Qed.

(* when find_last finds nothing, the rest of the pattern matches at no start position of the line *)
Lemma find_last_none a : forall b, no_lf a -> find_last (a ++ b) = None -> try_at b = None.
Proof.
  induction a as [|x a IH]; intros b Ha H; cbn [app] in H.
  - destruct b as [|c b]; cbn [find_last] in H; [exact H|].
    destruct (if c =? LF then None else find_last b); [discriminate|exact H].
  - apply no_lf_cons in Ha as [Hx Ha]. cbn [find_last] in H. rewrite Hx in H.
    destruct (find_last (a ++ b)) eqn:E; [discriminate|]. exact (IH b Ha E).
Qed.

(* the leading  .*  of the pattern is greedy: find_last answers with the match at some start position pre of the
   first line, and at no later start position of that line does the rest of the pattern match *)
Theorem find_last_is_last r : forall name rest, find_last r = Some (name, rest) ->
  exists pre s, r = pre ++ s /\ no_lf pre /\ try_at s = Some (name, rest) /\
    forall mid s', s = mid ++ s' -> mid <> [] -> no_lf mid -> try_at s' = None.
Proof.
  induction r as [|c r' IH]; intros name rest H; cbn [find_last] in H.
  - discriminate.
  - destruct (if c =? LF then None else find_last r') as [[n1 r1]|] eqn:El.
    + destruct (c =? LF) eqn:Ec; [discriminate|]. injection H as <- <-.
      destruct (IH n1 r1 El) as (pre & s & -> & Hp & Ht & Hlast).
      exists (c :: pre), s. repeat split; [apply no_lf_cons; auto|exact Ht|exact Hlast].
    + exists [], (c :: r'). repeat split; [exact H|].
      intros [|m mid] s' E Hne Hnl; [congruence|]. injection E as <- E.
      apply no_lf_cons in Hnl as [Hc Hnl]. rewrite Hc, E in El. exact (find_last_none mid s' Hnl El).
Qed.

(* a recognised comment starts with "#", has "coding" + ":" or "=" on its first line, then optional
   whitespace, a non-empty name of word characters, "-" and ".", and the line the name is on ends
   with a line feed; what follows that line feed is where the template begins *)
Theorem coding_comment_shape s name rest : coding_match s = Some (name, rest) ->
  exists pre sep ws post nl,
    s = [cHASHe] ++ pre ++ s2l "coding" ++ [sep] ++ ws ++ name ++ post ++ [nl] ++ rest /\
    no_lf pre /\ (sep = cCOLONe \/ sep = cEQe) /\ forallb is_blank_e ws = true /\
    name <> [] /\ forallb is_namechar_e name = true /\ no_lf post.
Proof.
  unfold coding_match. destruct s as [|c r]; [discriminate|]. destruct (N.eqb_spec c cHASHe) as [->|_]; [|discriminate].
  intros H. apply find_last_is_last in H as (pre & s & -> & Hp & Ht & _).
  apply try_at_shape in Ht as (sep & ws & post & nl & -> & H).
  exists pre, sep, ws, post, nl. split; [reflexivity|]. split; assumption.
Qed.

Lemma class_no_lf (p : N -> bool) s : p LF = false -> forallb p s = true -> no_lf s.
Proof.
  intros Hp. induction s as [|c r IH]; [reflexivity|]. intros [Hc Hr]%forallb_cons.
  apply no_lf_cons. split; [|exact (IH Hr)]. destruct (N.eqb_spec c LF) as [->|_]; [congruence|reflexivity].
Qed.

Lemma no_lf_app a b : no_lf a -> no_lf b -> no_lf (a ++ b).
Proof. unfold no_lf. intros Ha Hb. rewrite forallb_app, Ha, Hb. reflexivity. Qed.

(* the whole declaration stands on the first line: nothing of what the pattern consumes before the final line feed is a
   line feed (true since the blanks after the colon are blanks and tabs only, fix 099dbc7) *)
Theorem coding_comment_on_first_line s name rest : coding_match s = Some (name, rest) ->
  exists line nl, s = line ++ [nl] ++ rest /\ no_lf line.
Proof.
  intros H. apply coding_comment_shape in H as (pre & sep & ws & post & nl & -> & Hp & Hs & Hw & _ & Hn & Hpost).
  exists ([cHASHe] ++ pre ++ s2l "coding" ++ [sep] ++ ws ++ name ++ post), nl. split.
  - rewrite <- !app_assoc. reflexivity.
  - repeat apply no_lf_app; try assumption; try reflexivity.
    + destruct Hs as [-> | ->]; reflexivity.
    + exact (class_no_lf is_blank_e ws eq_refl Hw).
    + exact (class_no_lf is_namechar_e name eq_refl Hn).
Qed.

(* text that does not start with "#" declares nothing *)
Theorem no_hash_no_comment s : (match s with c :: _ => c <> cHASHe | [] => True end) -> coding_match s = None.
Proof.
  destruct s as [|c r]; intros H; [reflexivity|]. unfold coding_match. apply N.eqb_neq in H. rewrite H. reflexivity.
Qed.

Section Decide.
Variable dec_ignore : list N -> str.
Variable names_utf8 : str -> bool.

Theorem comment_beats_input_encoding b known name rest :
  strip_prefix BOM b = None -> coding_match (dec_ignore b) = Some (name, rest) ->
  decide dec_ignore names_utf8 (IBytes b) known = OBytes name b.
Proof. intros Hb Hc. unfold decide. rewrite Hb, Hc. reflexivity. Qed.

Theorem input_encoding_then_utf8 b known :
  strip_prefix BOM b = None -> coding_match (dec_ignore b) = None ->
  decide dec_ignore names_utf8 (IBytes b) known = OBytes (or_default known) b.
Proof. intros Hb Hc. unfold decide. rewrite Hb, Hc. reflexivity. Qed.

Theorem bom_is_utf8 p known :
  (coding_match (dec_ignore p) = None \/ exists name rest, coding_match (dec_ignore p) = Some (name, rest) /\ names_utf8 name = true) ->
  decide dec_ignore names_utf8 (IBytes (BOM ++ p)) known = OBytes utf8 p.
Proof.
  intros H. unfold decide. rewrite strip_prefix_app. destruct H as [->|(name & rest & -> & Hn)]; [reflexivity|].
  rewrite Hn. reflexivity.
Qed.

Theorem bom_conflict_raises p known name rest :
  coding_match (dec_ignore p) = Some (name, rest) -> names_utf8 name = false ->
  decide dec_ignore names_utf8 (IBytes (BOM ++ p)) known = OBomConflict name.
Proof.
  intros H Hn. unfold decide. rewrite strip_prefix_app, H, Hn. reflexivity.
Qed.

Theorem str_is_returned_unchanged t known : exists e, decide dec_ignore names_utf8 (IStr t) known = OStr e t.
Proof. unfold decide. destruct (coding_match t) as [[n r]|]; eexists; reflexivity. Qed.

Variable dec : str -> list N -> option str.

Theorem bom_conflict_is_compile_error p known name rest :
  coding_match (dec_ignore p) = Some (name, rest) -> names_utf8 name = false ->
  decode_raw_stream dec_ignore names_utf8 dec (IBytes (BOM ++ p)) known = RCompileError.
Proof. intros H Hn. unfold decode_raw_stream. rewrite (bom_conflict_raises p known name rest H Hn). reflexivity. Qed.

Theorem undecodable_raises text known e p :
  decide dec_ignore names_utf8 text known = OBytes e p -> dec e p = None ->
  decode_raw_stream dec_ignore names_utf8 dec text known = RCompileError.
Proof. intros H Hd. unfold decode_raw_stream. rewrite H. cbn [finish]. rewrite Hd. reflexivity. Qed.

Theorem decodable_gives_decoded_text text known e p t :
  decide dec_ignore names_utf8 text known = OBytes e p -> dec e p = Some t ->
  decode_raw_stream dec_ignore names_utf8 dec text known = RText e t.
Proof. intros H Hd. unfold decode_raw_stream. rewrite H. cbn [finish]. rewrite Hd. reflexivity. Qed.

(* bytes compile to the same template as their decoded text: the same encoding is chosen for the
   text given as str when the comment is visible in it *)
Theorem bytes_like_decoded_text b known name rest t :
  strip_prefix BOM b = None -> coding_match (dec_ignore b) = Some (name, rest) -> dec name b = Some t ->
  coding_match t = Some (name, rest) ->
  decode_raw_stream dec_ignore names_utf8 dec (IBytes b) known = decode_raw_stream dec_ignore names_utf8 dec (IStr t) known.
Proof.
  intros Hb Hc Hd Ht. unfold decode_raw_stream, decide. rewrite Hb, Hc, Ht. cbn [finish]. rewrite Hd. reflexivity.
Qed.
End Decide.

Section Out.
Variable enc : str -> str -> str -> option (list N).

Theorem render_unicode_ignores_output_encoding oe1 oe2 er1 er2 pieces :
  render_out enc true oe1 er1 pieces = render_out enc true oe2 er2 pieces.
Proof. reflexivity. Qed.

Theorem render_is_str_without_output_encoding errors pieces :
  render_out enc false None errors pieces = render_out enc true None errors pieces.
Proof. reflexivity. Qed.

Theorem render_is_encode_of_render_unicode e errors pieces text :
  e <> [] -> render_out enc true (Some e) errors pieces = RStr text ->
  render_out enc false (Some e) errors pieces =
    match enc e errors text with Some b => RBytes b | None => REncodeError end.
Proof.
  intros He H. cbn [render_out] in H. injection H as <-. unfold render_out. destruct e; [congruence|reflexivity].
Qed.
End Out.
