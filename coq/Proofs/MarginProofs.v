(* Proofs/MarginProofs.v -- C19, re-margining: the number of lines is kept because splitting, adjusting and
   joining go through lists of lines without LF; on lines the state machine passes at rest (simple) one
   step of adjust_lines strips exactly the margin *)
From MakoV Require Import Lib.Str Model.Margin.
Open Scope N_scope.

Definition no_lf (l : str) : Prop := countN LF l = 0.

Lemma split_lines_length s : forall cur, N.of_nat (length (split_lines s cur)) = countN LF s + 1.
Proof.
  induction s as [|c r IH]; intros cur; cbn [split_lines countN]; [reflexivity|].
  destruct (c =? LF); [cbn [length]; specialize (IH [])|destruct (_ && _); rewrite IH]; lia.
Qed.

Lemma split_lines_no_lf s : forall cur, no_lf cur -> Forall no_lf (split_lines s cur).
Proof.
  induction s as [|c r IH]; intros cur Hc; cbn [split_lines]; [repeat constructor; exact Hc|].
  destruct (c =? LF) eqn:E; [constructor; [exact Hc|apply IH; reflexivity]|].
  destruct (_ && _); apply IH; [exact Hc|]. unfold no_lf. rewrite countN_app, Hc. cbn [countN]. rewrite E. reflexivity.
Qed.

Lemma join_lf_count ls : Forall no_lf ls -> countN LF (join_lf ls) = N.of_nat (length ls) - 1.
Proof.
  induction 1 as [|x r Hx _ IH]; [reflexivity|]. destruct r as [|y r']; [exact Hx|].
  change (join_lf (x :: y :: r')) with (x ++ LF :: join_lf (y :: r')).
  rewrite countN_app, Hx. cbn [countN]. rewrite N.eqb_refl, IH. cbn [length]. lia.
Qed.

Lemma expandtabs_count l : forall col, countN LF (expandtabs l col) = countN LF l.
Proof.
  induction l as [|c r IH]; intros col; [reflexivity|]. cbn [expandtabs].
  destruct (N.eqb_spec c cTAB) as [->|Ht].
  - rewrite countN_app, IH.
    assert (Hrep : forall n, countN LF (repeat cSP n) = 0) by (induction n; cbn; auto).
    rewrite Hrep. reflexivity.
  - destruct ((c =? LF) || (c =? CR)); cbn [countN]; rewrite IH; reflexivity.
Qed.

Lemma expandtabs_no_lf l col : no_lf l -> no_lf (expandtabs l col).
Proof. unfold no_lf. rewrite expandtabs_count. auto. Qed.

Lemma leading_blanks_split l : leading_blanks l ++ skipn (length (leading_blanks l)) l = l.
Proof. induction l as [|c r IH]; [reflexivity|]. cbn [leading_blanks]. destruct (is_blank_m c); [cbn; rewrite IH; reflexivity|reflexivity]. Qed.

Lemma expand_margin_count l : countN LF (expand_margin l) = countN LF l.
Proof.
  unfold expand_margin. rewrite countN_app, expandtabs_count, <- countN_app, leading_blanks_split. reflexivity.
Qed.

Lemma strip_margin_no_lf m l : no_lf l -> no_lf (strip_margin m l).
Proof.
  intros H. unfold strip_margin. destruct m as [m|]; [|exact H].
  destruct (strip_prefix m l) as [r|] eqn:E; [|exact H].
  apply strip_prefix_spec in E. subst l. unfold no_lf in *. rewrite countN_app in H. lia.
Qed.

Lemma adjust_lines_length ls : forall st margin, length (adjust_lines ls st margin) = length ls.
Proof.
  induction ls as [|l r IH]; intros st margin; [reflexivity|]. cbn [adjust_lines].
  destruct (in_multi_line st l) as [[|] st']; cbn [length]; rewrite IH; reflexivity.
Qed.

Lemma adjust_lines_no_lf ls : Forall no_lf ls -> forall st margin, Forall no_lf (adjust_lines ls st margin).
Proof.
  induction 1 as [|l r Hl _ IH]; intros st margin; [constructor|]. cbn [adjust_lines].
  destruct (in_multi_line st l) as [[|] st']; constructor; try apply IH; [exact Hl|].
  apply strip_margin_no_lf. unfold no_lf. rewrite expand_margin_count. exact Hl.
Qed.

(* re-margining never changes the number of lines: line k of the adjusted block is line k of
   the block as written (the line numbers of C11, C12 and C20 take this for granted; no theorem there refers to it) *)
Theorem line_count_preserved text : countN LF (adjust_whitespace text) = countN LF text.
Proof.
  unfold adjust_whitespace. rewrite join_lf_count by (apply adjust_lines_no_lf, split_lines_no_lf; reflexivity).
  rewrite adjust_lines_length, split_lines_length. lia.
Qed.

Definition simple_char (c : N) : bool :=
  negb (c =? cHASHm) && negb (c =? cDQm) && negb (c =? cSQm) && negb (c =? cBS) && negb (c =? cTAB) && negb (c =? CR) && negb (c =? LF).
Definition simple (l : str) : Prop := forallb simple_char l = true.

Lemma simple_char_spec c : simple_char c = true ->
  (c =? cHASHm) = false /\ (c =? cDQm) = false /\ (c =? cSQm) = false /\ (c =? cBS) = false /\
  (c =? cTAB) = false /\ (c =? CR) = false /\ (c =? LF) = false.
Proof.
  unfold simple_char. intros H. do 6 (apply andb_true_iff in H as [H ?]).
  repeat split; apply negb_true_iff; assumption.
Qed.

Lemma simple_cons c r : simple (c :: r) <-> simple_char c = true /\ simple r.
Proof. apply andb_true_iff. Qed.

Lemma simple_expandtabs l : simple l -> forall col, expandtabs l col = l.
Proof.
  induction l as [|c r IH]; intros H col; [reflexivity|]. apply simple_cons in H as [Hc Hr].
  destruct (simple_char_spec c Hc) as (_ & _ & _ & _ & Et & Ec & El).
  cbn [expandtabs]. rewrite Et, El, Ec. cbn [orb]. rewrite (IH Hr). reflexivity.
Qed.

Lemma simple_leading l : simple l -> simple (leading_blanks l).
Proof.
  induction l as [|c r IH]; intros H; [reflexivity|]. apply simple_cons in H as [Hc Hr].
  cbn [leading_blanks]. destruct (is_blank_m c); [|reflexivity]. apply simple_cons. split; [exact Hc|exact (IH Hr)].
Qed.

Lemma simple_expand_margin l : simple l -> expand_margin l = l.
Proof.
  intros H. unfold expand_margin. rewrite (simple_expandtabs _ (simple_leading l H) 0). apply leading_blanks_split.
Qed.

Lemma simple_scan l : simple l -> forall skip, scan_line l None skip = None.
Proof.
  induction l as [|c r IH]; intros H skip; [reflexivity|]. apply simple_cons in H as [Hc Hr].
  destruct (simple_char_spec c Hc) as (Eh & Ed & Es & _).
  cbn [scan_line]. destruct skip; [|apply IH; exact Hr].
  unfold starts_with, delim. cbn [strip_prefix]. rewrite (N.eqb_sym cDQm c), (N.eqb_sym cSQm c), Eh, Ed, Es.
  apply IH. exact Hr.
Qed.

Lemma simple_no_backslash l : simple l -> ends_with_backslash l = false.
Proof.
  unfold simple, ends_with_backslash. intros H. destruct (rev l) as [|c r] eqn:E; [reflexivity|].
  assert (Hin : In c l) by (apply in_rev; rewrite E; left; reflexivity).
  rewrite forallb_forall in H. apply (simple_char_spec c (H c Hin)).
Qed.

(* a simple line neither opens nor continues a multi-line construct and has no tab to expand: one
   step of adjust_lines on it, whatever the margin *)
Lemma adjust_lines_simple l r margin : simple l ->
  adjust_lines (l :: r) m0 margin =
    let margin' := match margin with
                   | None => if sets_margin l then Some (leading_blanks l) else None
                   | Some _ => margin
                   end in
    strip_margin margin' l :: adjust_lines r m0 margin'.
Proof.
  intros H. cbn [adjust_lines in_multi_line m0 backslashed triple orb].
  rewrite (simple_scan l H), (simple_no_backslash l H), (simple_expand_margin l H). reflexivity.
Qed.

(* once the margin is known, every simple line loses exactly that margin (if it has it) and nothing else *)
Theorem margin_removed_uniformly m ls :
  Forall simple ls -> adjust_lines ls m0 (Some m) = map (strip_margin (Some m)) ls.
Proof.
  induction 1 as [|l r Hl _ IH]; [reflexivity|]. rewrite (adjust_lines_simple l r _ Hl). cbn [map]. rewrite IH. reflexivity.
Qed.

Theorem first_code_line_sets_margin l rest :
  simple l -> sets_margin l = true ->
  adjust_lines (l :: rest) m0 None =
    skipn (length (leading_blanks l)) l :: adjust_lines rest m0 (Some (leading_blanks l)).
Proof.
  intros Hl Hs. rewrite (adjust_lines_simple l rest None Hl), Hs. cbn zeta. unfold strip_margin.
  rewrite (proj2 (strip_prefix_spec _ _ _) (eq_sym (leading_blanks_split l))). reflexivity.
Qed.

(* "no character inside a string literal changes" is FALSE of the faithful model: a "#" inside an
   ordinary string hides the opening of a triple-quoted string on the same line, and the lines
   inside that string lose their indentation (known finding C19-F3) *)
Theorem strings_untouched_refuted :
  exists text, nth 1 (split_lines (adjust_whitespace text) []) [] <> nth 1 (split_lines text []) [].
Proof.
  exists (s2l "  x = ""#"" + '''" ++ [LF] ++ s2l "    keep" ++ [LF] ++ s2l "  '''"). vm_compute. discriminate.
Qed.

(* a line that starts inside a triple-quoted string or after a backslash continuation is passed
   through unchanged, whatever the margin *)
Theorem inside_multiline_untouched l rest st margin :
  backslashed st = true \/ triple st <> None ->
  adjust_lines (l :: rest) st margin = l :: adjust_lines rest (snd (in_multi_line st l)) margin.
Proof.
  intros H. cbn [adjust_lines]. unfold in_multi_line. cbn [snd].
  destruct H as [->|H]; [reflexivity|]. destruct (triple st); [rewrite orb_true_r; reflexivity|congruence].
Qed.

Theorem flush_one_line_per_entry ind : forall ls st margin, length (flush_lines ind ls st margin) = length ls.
Proof.
  induction ls as [|l r IH]; intros st margin; [reflexivity|]. cbn [flush_lines]. unfold p_in_multi_line.
  destruct (p_backslashed st || p_triple st); cbn [length]; rewrite IH; reflexivity.
Qed.

Theorem flush_inside_multiline_untouched ind l rest st margin :
  p_backslashed st = true \/ p_triple st = true ->
  flush_lines ind (l :: rest) st margin = l :: flush_lines ind rest (snd (p_in_multi_line st l)) margin.
Proof.
  intros H. cbn [flush_lines]. unfold p_in_multi_line. cbn [snd].
  destruct H as [-> | ->]; [|rewrite orb_true_r]; reflexivity.
Qed.

(* a simple line that carries the margin gets exactly the indentation in its place *)
Theorem flush_replaces_margin ind m body rest :
  simple (m ++ body) -> p_in_multi_line p0 (m ++ body) = (false, p0) ->
  flush_lines ind ((m ++ body) :: rest) p0 (Some m) =
    (match m with [] => ind ++ body | _ => ind ++ body end) :: flush_lines ind rest p0 (Some m).
Proof.
  intros Hs Hp. cbn [flush_lines]. rewrite Hp. rewrite (simple_expand_margin _ Hs). f_equal.
  unfold indent_line. destruct m as [|c m']; [reflexivity|]. rewrite strip_prefix_app. reflexivity.
Qed.
