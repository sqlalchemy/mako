(* Proofs/LexerProofs.v -- C01, C11: every scanner is a split of its input (consumed ++ rest = input),
   so whatever a matcher answers it pushes events that carry non-empty slices read off the front
   of the input.  Tiling, emission and positions are invariants of one such push; termination is
   that the input gets shorter. *)
From MakoV Require Import Lib.Str Gen.Unicode Gen.LexerOrder Gen.Parsetree Model.Lexer Model.PyLine.
Open Scope N_scope.

(* closes an equation between two concatenations of the same pieces, associated differently *)
Ltac app_norm := repeat (progress (rewrite <- ?app_assoc; cbn [app])); try reflexivity.

(* The scanners: what is consumed and what remains make up the input.  A scanner that may fail has its
   lemma stated as a match on what it returns, so that destructing the call leaves the equation;
   [span] cannot fail, and [span_eq] is applied to the equation its destruct leaves. *)
Lemma span_split p s : fst (span p s) ++ snd (span p s) = s.
Proof.
  induction s as [|c r IH]; [reflexivity|]. cbn [span]. destruct (p c); [|reflexivity].
  destruct (span p r) as [a b]. cbn [fst snd] in *. cbn [app]. rewrite IH. reflexivity.
Qed.

Lemma span_eq p s a b : span p s = (a, b) -> a ++ b = s.
Proof. intros H. pose proof (span_split p s) as E. rewrite H in E. exact E. Qed.

Lemma span_all p s : forallb p (fst (span p s)) = true.
Proof.
  induction s as [|c r IH]; [reflexivity|]. cbn [span]. destruct (p c) eqn:Hc; [|reflexivity].
  destruct (span p r) as [a b]. cbn [fst forallb] in *. rewrite Hc. exact IH.
Qed.

Lemma span_app (p : N -> bool) a x r : forallb p a = true -> p x = false -> span p (a ++ x :: r) = (a, x :: r).
Proof.
  induction a as [|y a IH]; cbn [app span forallb]; intros Ha Hx; [rewrite Hx; reflexivity|].
  apply andb_true_iff in Ha as [Hy Ha]. rewrite Hy, (IH Ha Hx). reflexivity.
Qed.

Lemma strip_prefix_eq p s r : strip_prefix p s = Some r -> p ++ r = s.
Proof. intros H. apply strip_prefix_spec in H. symmetry. exact H. Qed.

Lemma find_lit_eq lit s : match find_lit lit s with Some (a, b) => a ++ b = s | None => True end.
Proof.
  induction s as [|c r IH]; cbn [find_lit].
  - destruct (starts_with lit []); [reflexivity|exact I].
  - destruct (starts_with lit (c :: r)); [reflexivity|].
    destruct (find_lit lit r) as [[a b]|]; [|exact I]. cbn [app]. rewrite IH. reflexivity.
Qed.

Lemma eat_newline_inv s nl r : eat_newline s = Some (nl, r) -> (nl = [LF] \/ nl = [CR; LF]) /\ s = nl ++ r.
Proof.
  destruct s as [|c s']; [discriminate|]. cbn [eat_newline].
  destruct (N.eqb_spec c LF) as [->|_]; [intros [= <- <-]; auto|].
  destruct (N.eqb_spec c CR) as [->|_]; [|discriminate]. destruct s' as [|d s'']; [discriminate|].
  destruct (N.eqb_spec d LF) as [->|_]; [intros [= <- <-]; auto|discriminate].
Qed.

Lemma scan_hash_comment_eq s : match scan_hash_comment s with Some (c, r) => c ++ r = s /\ c <> [] | None => True end.
Proof.
  unfold scan_hash_comment. destruct s as [|x s']; [exact I|]. destruct (x =? cHASH); [|exact I].
  destruct (span (fun y => negb (y =? LF)) s') as [run rest] eqn:E. apply span_eq in E.
  destruct rest as [|l rest2]; [exact I|]. split; [|discriminate]. rewrite <- E. app_norm.
Qed.

Lemma scan_str_body_eq delim : forall s, match scan_str_body delim s with Some (a, b) => a ++ b = s | None => True end.
Proof.
  fix IH 1. intros [|c r1]; cbn [scan_str_body].
  - destruct (strip_prefix delim []) as [rest|] eqn:E; [exact (strip_prefix_eq _ _ _ E)|exact I].
  - destruct (strip_prefix delim (c :: r1)) as [rest|] eqn:E; [exact (strip_prefix_eq _ _ _ E)|].
    destruct (c =? cBSLASH).
    + destruct r1 as [|x r2]; [exact I|]. specialize (IH r2).
      destruct (scan_str_body delim r2) as [[a b]|]; [|exact I]. cbn [app]. rewrite IH. reflexivity.
    + specialize (IH r1). destruct (scan_str_body delim r1) as [[a b]|]; [|exact I]. cbn [app]. rewrite IH. reflexivity.
Qed.

Lemma try_delim_eq delim s : delim <> [] ->
  match try_delim delim s with Some (a, b) => a ++ b = s /\ a <> [] | None => True end.
Proof.
  intros Hd. unfold try_delim. destruct (strip_prefix delim s) as [r|] eqn:E; [|exact I].
  apply strip_prefix_eq in E. pose proof (scan_str_body_eq delim r) as E2.
  destruct (scan_str_body delim r) as [[a b]|]; [|exact I]. split.
  - rewrite <- app_assoc, E2. exact E.
  - destruct delim; [congruence|discriminate].
Qed.

Lemma scan_string_eq s : match scan_string s with Some (a, b) => a ++ b = s /\ a <> [] | None => True end.
Proof.
  unfold scan_string.
  pose proof (try_delim_eq [cDQ; cDQ; cDQ] s) as H. destruct (try_delim [cDQ; cDQ; cDQ] s) as [[a b]|]; [apply H; discriminate|clear H].
  pose proof (try_delim_eq [cSQ; cSQ; cSQ] s) as H. destruct (try_delim [cSQ; cSQ; cSQ] s) as [[a b]|]; [apply H; discriminate|clear H].
  pose proof (try_delim_eq [cDQ] s) as H. destruct (try_delim [cDQ] s) as [[a b]|]; [apply H; discriminate|clear H].
  apply try_delim_eq. discriminate.
Qed.

Lemma first_stop_eq stops s : match first_stop stops s with Some (t, r) => t ++ r = s /\ In t stops | None => True end.
Proof.
  induction stops as [|t0 ts IH]; cbn [first_stop]; [exact I|].
  destruct (strip_prefix t0 s) as [r0|] eqn:E; [split; [exact (strip_prefix_eq _ _ _ E)|left; reflexivity]|].
  destruct (first_stop ts s) as [[t r]|]; [|exact I]. split; [apply IH|right; apply IH].
Qed.

Lemma scan_run_eq stops : forall s, match scan_run stops s with Some (a, b) => a ++ b = s | None => True end.
Proof.
  induction s as [|c r IH]; cbn [scan_run]; [exact I|].
  destruct ((c =? cDQ) || (c =? cSQ) || (c =? cHASH) || match first_stop stops (c :: r) with Some _ => true | None => false end);
    [reflexivity|].
  destruct (scan_run stops r) as [[a b]|]; [|exact I]. cbn [app]. rewrite IH. reflexivity.
Qed.

(* one turn of the loop of parse_until_text: it goes on with more text, less input and new counts, or answers *)
Inductive pstep := PMore (acc s : str) (lv : levels) | PDone (r : option (str * str * str)).

Definition put_step (nest : bool) (stops : list str) (acc s : str) (lv : levels) : pstep :=
  match scan_hash_comment s with
  | Some (c, r) => PMore (acc ++ c) r lv
  | None =>
      match scan_string s with
      | Some (c, r) => PMore (acc ++ c) r lv
      | None =>
          match first_stop stops s with
          | Some (t, r) => if nest && nested lv then PMore (acc ++ t) r (bump lv t) else PDone (Some (acc, t, r))
          | None =>
              match scan_run stops s with
              | Some ([], _) => match s with c :: r => PMore (acc ++ [c]) r lv | [] => PDone None end
              | Some (run, r) => PMore (acc ++ run) r (bump lv run)
              | None => PDone None
              end
          end
      end
  end.

Lemma put_loop_S f nest stops acc s lv : put_loop (S f) nest stops acc s lv =
  match put_step nest stops acc s lv with PMore a s' l => put_loop f nest stops a s' l | PDone r => r end.
Proof.
  cbn [put_loop]. unfold put_step. destruct (scan_hash_comment s) as [[c r]|]; [reflexivity|].
  destruct (scan_string s) as [[c r]|]; [reflexivity|].
  destruct (first_stop stops s) as [[t r]|]; [destruct (nest && nested lv); reflexivity|].
  destruct (scan_run stops s) as [[[|x run] r]|]; [destruct s| |]; reflexivity.
Qed.

Lemma put_step_spec nest stops acc s lv :
  match put_step nest stops acc s lv with
  | PMore a s' _ => exists c, c ++ s' = s /\ a = acc ++ c /\ ((forall t, In t stops -> t <> []) -> c <> [])
  | PDone (Some (text, stop, rest)) => text = acc /\ stop ++ rest = s
  | PDone None => True
  end.
Proof.
  unfold put_step.
  pose proof (scan_hash_comment_eq s) as H1. destruct (scan_hash_comment s) as [[c r]|].
  { exists c. destruct H1. auto. }
  pose proof (scan_string_eq s) as H2. destruct (scan_string s) as [[c r]|].
  { exists c. destruct H2. auto. }
  pose proof (first_stop_eq stops s) as H3. destruct (first_stop stops s) as [[t r]|].
  { destruct H3 as [H3 Hin]. destruct (nest && nested lv); [|split; [reflexivity|exact H3]].
    exists t. split; [exact H3|]. split; [reflexivity|]. exact (fun H => H t Hin). }
  pose proof (scan_run_eq stops s) as H4. destruct (scan_run stops s) as [[[|x run] r]|]; [| |exact I].
  - destruct s as [|c s']; [exact I|]. exists [c]. repeat split. discriminate.
  - exists (x :: run). repeat split; [exact H4|discriminate].
Qed.

Lemma put_loop_eq fuel nest stops : forall acc s lv,
  match put_loop fuel nest stops acc s lv with Some (text, stop, rest) => text ++ stop ++ rest = acc ++ s | None => True end.
Proof.
  induction fuel as [|f IH]; intros acc s lv; [exact I|]. rewrite put_loop_S.
  pose proof (put_step_spec nest stops acc s lv) as H. destruct (put_step nest stops acc s lv) as [a s' l|[[[text stop] rest]|]].
  - destruct H as (c & <- & -> & _). rewrite app_assoc. exact (IH _ _ _).
  - destruct H as [-> <-]. reflexivity.
  - exact I.
Qed.

Lemma parse_until_eq nest stops s :
  match parse_until nest stops s with Some (text, stop, rest) => text ++ stop ++ rest = s | None => True end.
Proof. apply (put_loop_eq _ nest stops [] s lv0). Qed.

Lemma app_shorter {A} (c r' : list A) r : c <> [] -> c ++ r' = r -> (length r' < length r)%nat.
Proof. intros Hc <-. rewrite app_length. destruct c; [congruence|simpl; lia]. Qed.

Lemma put_loop_fuel f1 nest stops : (forall t, In t stops -> t <> []) ->
  forall f2 acc s lv, (length s < f1)%nat -> (length s < f2)%nat ->
  put_loop f1 nest stops acc s lv = put_loop f2 nest stops acc s lv.
Proof.
  intros Hst. induction f1 as [|f IH]; intros f2 acc s lv H1 H2; [lia|]. destruct f2 as [|g]; [lia|].
  rewrite !put_loop_S. pose proof (put_step_spec nest stops acc s lv) as H.
  destruct (put_step nest stops acc s lv) as [a s' l|r]; [|reflexivity].
  destruct H as (c & Es & _ & Hc). pose proof (app_shorter c s' s (Hc Hst) Es). apply IH; lia.
Qed.

(* parse_until_text's answer does not depend on the fuel: "no match" is never an artefact *)
Theorem parse_until_fuel_independent nest stops s extra :
  (forall t, In t stops -> t <> []) ->
  put_loop (S (length s) + extra) nest stops [] s lv0 = parse_until nest stops s.
Proof. intros H. unfold parse_until. apply put_loop_fuel; [exact H|lia|lia]. Qed.

Definition lastc_ok (orig : str) (lastc : option (str * str * str)) : Prop :=
  match lastc with Some (t, nl, r) => t ++ nl ++ r = orig | None => True end.

Lemma scan_ctl_items_eq orig : forall s acc lastc pend, acc ++ s = orig -> lastc_ok orig lastc ->
  let '(text, rest, lc) := scan_ctl_items s acc lastc pend in text ++ rest = orig /\ lastc_ok orig lc.
Proof.
  induction s as [|c r IH]; intros acc lastc pend Ho Hl; cbn [scan_ctl_items]; [split; assumption|].
  assert (Hstep : (acc ++ [c]) ++ r = orig) by (rewrite <- app_assoc; exact Ho).
  destruct pend as [|k]; [|apply IH; assumption].
  destruct (c =? cBSLASH).
  - destruct (eat_newline r) as [[nl r2]|] eqn:En; apply IH; try assumption.
    cbn [lastc_ok]. apply eat_newline_inv in En as [_ <-]. exact Hstep.
  - destruct ((c =? CR) || (c =? LF)); [split; assumption|apply IH; assumption].
Qed.

Lemma scan_control_line_eq s :
  match scan_control_line s with
  | Some (_, lead, text, nl, rest) => (lead ++ text ++ nl) ++ rest = s /\ lead ++ text ++ nl <> []
  | None => True
  end.
Proof.
  unfold scan_control_line. destruct (span is_blank s) as [ind r0] eqn:E0. apply span_eq in E0.
  (* the operator, as scan_control_line computes it: [set] finds it only if it is written exactly so *)
  set (op := match r0 with
             | a :: r1 => if a =? cPCT then match r1 with b :: _ => if b =? cPCT then None else Some (CtlPercent, [a], r1) | [] => Some (CtlPercent, [a], r1) end
                          else if a =? cHASH then match r1 with b :: r2 => if b =? cHASH then Some (CtlHash, [a; b], r2) else None | [] => None end
                          else None
             | [] => None end).
  assert (Hop : match op with Some (_, optxt, r1) => optxt ++ r1 = r0 /\ optxt <> [] | None => True end).
  { unfold op. destruct r0 as [|a r1]; [exact I|]. destruct (a =? cPCT).
    - destruct r1 as [|b r2]; [split; [reflexivity|discriminate]|].
      destruct (b =? cPCT); [exact I|split; [reflexivity|discriminate]].
    - destruct (a =? cHASH); [|exact I]. destruct r1 as [|b r2]; [exact I|].
      destruct (b =? cHASH); [split; [reflexivity|discriminate]|exact I]. }
  destruct op as [[[o' optxt] r1]|]; [|exact I]. destruct Hop as [Eop Hne].
  destruct (span is_blank r1) as [bl r2] eqn:E2. apply span_eq in E2.
  pose proof (scan_ctl_items_eq r2 r2 [] None 0%nat eq_refl I) as E3.
  destruct (scan_ctl_items r2 [] None 0) as [[text' rest'] lastc]. destruct E3 as [E4 Hlc].
  assert (Hall : forall t n rr, t ++ n ++ rr = r2 ->
            ((ind ++ optxt ++ bl) ++ t ++ n) ++ rr = s /\ (ind ++ optxt ++ bl) ++ t ++ n <> []).
  { intros t n rr H. split.
    - rewrite <- E0, <- Eop, <- E2, <- H. app_norm.
    - destruct ind; [destruct optxt; [congruence|discriminate]|discriminate]. }
  destruct rest' as [|x rest'']; [apply Hall; rewrite <- E4; app_norm|].
  destruct (eat_newline (x :: rest'')) as [[nl' rest2]|] eqn:En.
  - apply Hall. apply eat_newline_inv in En as [_ <-]. exact E4.
  - destruct lastc as [[[t nl'] rest2]|]; [|exact I]. apply Hall. exact Hlc.
Qed.

Lemma scan_doc_eq s : match scan_doc s with Some (_, src, rest) => src ++ rest = s /\ src <> [] | None => True end.
Proof.
  unfold scan_doc. destruct (strip_prefix (s2l "<%doc>") s) as [r|] eqn:E1; [|exact I].
  pose proof (find_lit_eq (s2l "</%doc>") r) as E2. destruct (find_lit (s2l "</%doc>") r) as [[b r2]|]; [|exact I].
  destruct (strip_prefix (s2l "</%doc>") r2) as [rest'|] eqn:E3; [|exact I].
  apply strip_prefix_eq in E1, E3. split; [|discriminate]. rewrite <- E1, <- E2, <- E3. app_norm.
Qed.

Lemma scan_quoted_eq q s : match scan_quoted q s with Some (a, b) => exists body, a = q :: body /\ body ++ b = s | None => True end.
Proof.
  unfold scan_quoted. destruct (span (fun x => negb (x =? q)) s) as [body r] eqn:E. apply span_eq in E.
  destruct r as [|x rest]; [exact I|]. exists (body ++ [x]). split; [reflexivity|]. rewrite <- app_assoc. exact E.
Qed.

Lemma scan_attr_items_eq fuel : forall aftereq wsafter acc s,
  let (attr, rest) := scan_attr_items fuel aftereq wsafter acc s in attr ++ rest = acc ++ s.
Proof.
  induction fuel as [|f IH]; intros aftereq wsafter acc s; cbn [scan_attr_items]; [reflexivity|].
  destruct (span is_space s) as [ws r] eqn:E. apply span_eq in E.
  (* each item that is read joins [acc]; the input stays the same *)
  assert (Hgo : forall b1 b2 item r', ws ++ item ++ r' = s ->
            let (attr, rest) := scan_attr_items f b1 b2 (acc ++ ws ++ item) r' in attr ++ rest = acc ++ s).
  { intros b1 b2 item r' <-. replace (acc ++ ws ++ item ++ r') with ((acc ++ ws ++ item) ++ r') by app_norm. apply IH. }
  destruct r as [|c r1]; [reflexivity|].
  destruct ((c =? cEQ) || (c =? cCOMMA)).
  - destruct (span is_space r1) as [ws2 r2] eqn:E2. apply span_eq in E2.
    apply (Hgo _ _ (c :: ws2)). rewrite <- E, <- E2. reflexivity.
  - destruct (is_word c).
    + destruct (negb match ws with [] => true | _ :: _ => false end || aftereq && wsafter); [|reflexivity].
      destruct (span is_word (c :: r1)) as [w r2] eqn:E2. apply span_eq in E2. apply Hgo. rewrite E2. exact E.
    + destruct ((c =? cDQ) || (c =? cSQ)); [|reflexivity]. destruct ws; [|reflexivity].
      pose proof (scan_quoted_eq c r1) as Eq. destruct (scan_quoted c r1) as [[q r2]|]; [|reflexivity].
      destruct Eq as [body [-> Hb]]. apply (Hgo _ _ (c :: body)). rewrite <- E, <- Hb. reflexivity.
Qed.

Lemma scan_tag_start_eq s :
  match scan_tag_start s with Some (_, _, _, src, rest) => src ++ rest = s /\ src <> [] | None => True end.
Proof.
  unfold scan_tag_start. destruct (strip_prefix [cLT; cPCT] s) as [r0|] eqn:E0; [|exact I].
  apply strip_prefix_eq in E0.
  destruct (span is_kwchar r0) as [k r1] eqn:E1. apply span_eq in E1.
  destruct k as [|k0 k']; [exact I|].
  pose proof (scan_attr_items_eq (S (length r1)) false false [] r1) as E2.
  destruct (scan_attr_items (S (length r1)) false false [] r1) as [attr r2]. cbn [app] in E2.
  destruct (span is_space r2) as [ws r3] eqn:E3. apply span_eq in E3.
  destruct r3 as [|a r4]; [exact I|].
  assert (Hpre : forall tail rr, tail ++ rr = a :: r4 -> ([cLT; cPCT] ++ (k0 :: k') ++ attr ++ ws ++ tail) ++ rr = s).
  { intros tail rr H. rewrite <- E0, <- E1, <- E2, <- E3, <- H. app_norm. }
  destruct (a =? cGT); [split; [apply Hpre; reflexivity|discriminate]|].
  destruct (a =? cSLASH); [|exact I]. destruct r4 as [|b r5]; [exact I|].
  destruct (b =? cGT); [|exact I]. split; [apply Hpre; reflexivity|discriminate].
Qed.

Lemma scan_tag_end_name_eq : forall s acc,
  match scan_tag_end_name s acc with Some (name, tail, rest) => name ++ tail ++ rest = acc ++ s | None => True end.
Proof.
  induction s as [|c r IH]; intros acc; cbn [scan_tag_end_name]; [exact I|].
  set (tc := match acc with (* copied from the body, as in scan_control_line_eq *)
             | [] => None
             | _ :: _ => let (bl, r2) := span is_blank (c :: r) in
                         match r2 with g :: rest0 => if g =? cGT then Some (acc, bl ++ [g], rest0) else None | [] => None end
             end).
  assert (Htc : match tc with Some (name, tail, rest) => name ++ tail ++ rest = acc ++ c :: r | None => True end).
  { unfold tc. destruct acc as [|a0 acc']; [exact I|].
    destruct (span is_blank (c :: r)) as [bl r2] eqn:E. apply span_eq in E.
    destruct r2 as [|g rest0]; [exact I|]. destruct (g =? cGT); [|exact I]. rewrite <- E, <- !app_assoc. reflexivity. }
  destruct tc as [[[name tail] rest]|]; [exact Htc|].
  destruct (is_blank c); [exact I|]. change (acc ++ c :: r) with (acc ++ [c] ++ r). rewrite app_assoc. apply IH.
Qed.

Lemma scan_tag_end_eq s : match scan_tag_end s with Some (_, src, rest) => src ++ rest = s /\ src <> [] | None => True end.
Proof.
  unfold scan_tag_end. destruct (strip_prefix [cLT; cSLASH; cPCT] s) as [r0|] eqn:E0; [|exact I].
  apply strip_prefix_eq in E0. destruct (span is_blank r0) as [bl r1] eqn:E1. apply span_eq in E1.
  pose proof (scan_tag_end_name_eq r1 []) as E2. destruct (scan_tag_end_name r1 []) as [[[nm tail] rest']|]; [|exact I].
  cbn [app] in E2. split; [|discriminate]. rewrite <- E0, <- E1, <- E2. app_norm.
Qed.

(* the shape of the slice and its white space are what [m_percent_spec] needs for [emit_ok] *)
Lemma scan_percent_eq s :
  match scan_percent s with
  | Some (ws, ps, src, rest) => src ++ rest = s /\ src <> [] /\ src = ws ++ cPCT :: cPCT :: ps /\ forallb is_space ws = true
  | None => True
  end.
Proof.
  unfold scan_percent. pose proof (span_all is_space s) as Hw. pose proof (span_split is_space s) as E.
  destruct (span is_space s) as [w r]. cbn [fst snd] in Hw, E.
  destruct (strip_prefix [cPCT; cPCT] r) as [r2|] eqn:E2; [|exact I]. apply strip_prefix_eq in E2.
  destruct (span (fun x => x =? cPCT) r2) as [p rest'] eqn:E3. apply span_eq in E3.
  repeat split; [rewrite <- E, <- E2, <- E3; app_norm|destruct w; discriminate|exact Hw].
Qed.

Lemma scan_text_eq : forall s prev, let '(t, d, rest) := scan_text prev s in t ++ d ++ rest = s.
Proof.
  induction s as [|c r IH]; intros prev; cbn [scan_text].
  - destruct (text_stop_here prev []); reflexivity.
  - destruct (text_stop_here prev (c :: r)); [reflexivity|].
    destruct (c =? cBSLASH).
    + destruct (eat_newline r) as [[nl r2]|] eqn:Hc.
      * apply eat_newline_inv in Hc as [_ ->]. reflexivity.
      * specialize (IH (Some c)). destruct (scan_text (Some c) r) as [[t' d'] rest']. cbn [app]. rewrite IH. reflexivity.
    + specialize (IH (Some c)). destruct (scan_text (Some c) r) as [[t' d'] rest']. cbn [app]. rewrite IH. reflexivity.
Qed.

Lemma scan_coding_eq s : match scan_coding s with Some (src, rest) => src ++ rest = s /\ src <> [] | None => True end.
Proof.
  unfold scan_coding. destruct s as [|c r]; [exact I|]. destruct (c =? cHASH); [|exact I].
  destruct (span (fun x => negb (x =? LF)) r) as [line rest'] eqn:E. apply span_eq in E.
  destruct rest' as [|l rest2]; [exact I|]. destruct (has_coding line); [|exact I].
  split; [|discriminate]. rewrite <- E. app_norm.
Qed.

(* [st'] is [st] with one more event: a non-empty slice read off the front of the input, of a kind
   that may emit it *)
Inductive pushed (st : lstate) : lstate -> Prop :=
| pushed_intro k src rest tg ct :
    src <> [] -> src ++ rest = c_rest (cur st) -> emit_ok (mk_event (cur st) k src) = true ->
    pushed st {| cur := advance (cur st) src rest; tags := tg; ctls := ct; evs := mk_event (cur st) k src :: evs st |}.

Inductive pushes (st : lstate) : lstate -> Prop :=
| pushes_one st' : pushed st st' -> pushes st st'
| pushes_more st1 st' : pushed st st1 -> pushes st1 st' -> pushes st st'.

Lemma pushes_trans st1 st2 st3 : pushes st1 st2 -> pushes st2 st3 -> pushes st1 st3.
Proof. intros H12 H23. induction H12 as [? ? H|? ? ? H _ IH]; eapply pushes_more; eauto. Qed.

Lemma pushes_inv (P : lstate -> Prop) : (forall st st', P st -> pushed st st' -> P st') ->
  forall st st', pushes st st' -> P st -> P st'.
Proof. intros HP st st' H. induction H; eauto. Qed.

(* what a matcher may answer: it goes on only after pushing events, and never stops for want of fuel *)
Definition step_spec (st : lstate) (r : stepres) : Prop :=
  match r with
  | Continue st' => pushes st st'
  | Stop _ e _ _ => e <> EOutOfFuel
  | NoMatch => True
  end.

Lemma emit_ok_text c t : emit_ok (mk_event c (KText t) t) = true.
Proof. unfold emit_ok, mk_event. cbn [ev_kind ev_src]. rewrite str_eqb_refl. reflexivity. Qed.

Lemma m_expression_spec st : step_spec st (m_expression st).
Proof.
  unfold m_expression. destruct (strip_prefix [cDOLLAR; cLBRACE] (c_rest (cur st))) as [r0|] eqn:E0; [|exact I].
  apply strip_prefix_eq in E0.
  pose proof (parse_until_eq true [[cPIPE]; [cRBRACE]] r0) as E1.
  destruct (parse_until true [[cPIPE]; [cRBRACE]] r0) as [[[text stop] r1]|]; [|discriminate].
  destruct (str_eqb stop [cPIPE]).
  - pose proof (parse_until_eq true [[cRBRACE]] r1) as E2.
    destruct (parse_until true [[cRBRACE]] r1) as [[[esc stop2] r2]|]; [|discriminate].
    apply pushes_one, pushed_intro; [discriminate| |reflexivity]. rewrite <- E0, <- E1, <- E2. app_norm.
  - apply pushes_one, pushed_intro; [discriminate| |reflexivity]. rewrite <- E0, <- E1. app_norm.
Qed.

Lemma m_control_line_spec st : step_spec st (m_control_line st).
Proof.
  unfold m_control_line. destruct (negb (at_bol (cur st))); [exact I|].
  pose proof (scan_control_line_eq (c_rest (cur st))) as E.
  destruct (scan_control_line (c_rest (cur st))) as [[[[[op lead] text] nl] rest]|]; [|exact I]. destruct E as [Es Hne].
  (* whatever the keyword bookkeeping does to the open tags and control lines, a step that goes on
     pushes the one event of the line *)
  assert (Hgo : forall k tg ct, emit_ok (mk_event (cur st) k (lead ++ text ++ nl)) = true ->
     pushes st {| cur := advance (cur st) (lead ++ text ++ nl) rest; tags := tg; ctls := ct;
                  evs := mk_event (cur st) k (lead ++ text ++ nl) :: evs st |}).
  { intros k tg ct Hk. apply pushes_one, pushed_intro; assumption. }
  destruct op; [|apply Hgo; reflexivity].
  destruct (ctl_keyword text) as [[isend kw]|]; [|discriminate].
  destruct isend.
  - destruct (ctls st) as [|[[top l] p] rc]; [discriminate|].
    destruct (str_eqb top kw); [apply Hgo; reflexivity|discriminate].
  - destruct (is_primary kw); [apply Hgo; reflexivity|].
    destruct (ctls st) as [|[[top l] p] rc]; [apply Hgo; reflexivity|].
    destruct (is_ternary top kw); [apply Hgo; reflexivity|discriminate].
Qed.

Lemma m_comment_spec st : step_spec st (m_comment st).
Proof.
  unfold m_comment. pose proof (scan_doc_eq (c_rest (cur st))) as E.
  destruct (scan_doc (c_rest (cur st))) as [[[body src] rest]|]; [|exact I].
  apply pushes_one, pushed_intro; [apply E|apply E|reflexivity].
Qed.

Lemma do_tag_end_spec st : step_spec st (do_tag_end st).
Proof.
  unfold do_tag_end. pose proof (scan_tag_end_eq (c_rest (cur st))) as E.
  destruct (scan_tag_end (c_rest (cur st))) as [[[name src] rest]|]; [|exact I].
  destruct (tags st) as [|top more]; [discriminate|]. destruct (str_eqb top name); [|discriminate].
  apply pushes_one, pushed_intro; [apply E|apply E|reflexivity].
Qed.

(* the closing tag of a text section is looked for at once, after the events of its opening *)
Lemma tag_end_after st st1 : pushes st st1 ->
  step_spec st (match do_tag_end st1 with NoMatch => Continue st1 | other => other end).
Proof.
  intros H. pose proof (do_tag_end_spec st1) as Hd. destruct (do_tag_end st1) as [st2|st2 e l p|].
  - exact (pushes_trans _ _ _ H Hd).
  - exact Hd.
  - exact H.
Qed.

Lemma m_tag_start_spec st : step_spec st (m_tag_start st).
Proof.
  unfold m_tag_start. pose proof (scan_tag_start_eq (c_rest (cur st))) as E.
  destruct (scan_tag_start (c_rest (cur st))) as [[[[[kw attrs] sc] src] rest]|]; [|exact I]. destruct E as [Es Hne].
  set (c1 := advance (cur st) src rest). set (ev := mk_event (cur st) (KTag kw attrs sc) src).
  assert (H1 : forall tg, pushed st {| cur := c1; tags := tg; ctls := ctls st; evs := ev :: evs st |}).
  { intros tg. apply pushed_intro; [exact Hne|exact Es|reflexivity]. }
  destruct sc; [apply pushes_one, H1|].
  destruct (str_eqb kw (s2l "text")); [|apply pushes_one, H1].
  pose proof (find_lit_eq (s2l "</%text>") rest) as Ef.
  destruct (find_lit (s2l "</%text>") rest) as [[body r2]|]; [|discriminate].
  destruct body as [|b0 body']; apply tag_end_after; [apply pushes_one, H1|].
  apply (pushes_more _ _ _ (H1 (kw :: tags st))), pushes_one, pushed_intro; [discriminate|exact Ef|apply emit_ok_text].
Qed.

Lemma m_python_block_spec st : step_spec st (m_python_block st).
Proof.
  unfold m_python_block. destruct (strip_prefix [cLT; cPCT] (c_rest (cur st))) as [r0|] eqn:E0; [|exact I].
  apply strip_prefix_eq in E0.
  set (trip := match r0 with (* copied from the body, as in scan_control_line_eq *)
               | x :: r => if x =? cEXCL then (true, [cLT; cPCT; cEXCL], r) else (false, [cLT; cPCT], r0)
               | [] => (false, [cLT; cPCT], r0) end).
  assert (Ht : snd (fst trip) ++ snd trip = c_rest (cur st) /\ snd (fst trip) <> []).
  { unfold trip. destruct r0 as [|x r]; [split; [exact E0|discriminate]|].
    destruct (N.eqb_spec x cEXCL) as [->|Hx]; cbn [fst snd]; (split; [exact E0|discriminate]). }
  destruct trip as [[ismod opening] r1]. cbn [fst snd] in Ht. destruct Ht as [Ht Hne].
  pose proof (parse_until_eq false [[cPCT; cGT]] r1) as E1.
  destruct (parse_until false [[cPCT; cGT]] r1) as [[[text stop] r2]|]; [|discriminate]. apply pushes_one, pushed_intro; [|rewrite <- Ht, <- E1; app_norm|reflexivity].
  destruct opening; [congruence|discriminate].
Qed.

Lemma space_not_pct : is_space cPCT = false.
Proof. vm_compute. reflexivity. Qed.

Lemma remove_first_pct_ws ws r : forallb is_space ws = true ->
  remove_first_pct (ws ++ cPCT :: r) = ws ++ r.
Proof.
  intros H. unfold remove_first_pct. rewrite (span_app _ ws cPCT r); [reflexivity| |reflexivity].
  rewrite forallb_forall in *. intros w Hw. specialize (H w Hw).
  destruct (N.eqb_spec w cPCT) as [->|_]; [rewrite space_not_pct in H; discriminate H|reflexivity].
Qed.

(* the one text event that does not emit its slice: a line-leading "%%" emits it with one "%" removed *)
Lemma m_percent_spec st : step_spec st (m_percent st).
Proof.
  unfold m_percent. destruct (negb (at_bol (cur st))); [exact I|]. pose proof (scan_percent_eq (c_rest (cur st))) as E.
  destruct (scan_percent (c_rest (cur st))) as [[[[ws ps] src] rest]|]; [|exact I]. destruct E as (Es & Hne & -> & Hw).
  apply pushes_one, pushed_intro; [exact Hne|exact Es|].
  unfold emit_ok, mk_event. cbn [ev_kind ev_src]. apply orb_true_iff. right. apply str_eqb_eq.
  symmetry. exact (remove_first_pct_ws ws (cPCT :: ps) Hw).
Qed.

Lemma m_text_spec st : step_spec st (m_text st).
Proof.
  unfold m_text. pose proof (scan_text_eq (c_rest (cur st)) (c_prev (cur st))) as E.
  destruct (scan_text (c_prev (cur st)) (c_rest (cur st))) as [[t d] rest]. destruct t as [|t0 t']; destruct d as [|d0 d'].
  - destruct rest as [|x r]; [exact I|]. apply pushes_one, pushed_intro; [discriminate|exact E|apply emit_ok_text].
  - apply pushes_one, pushed_intro; [discriminate|exact E|reflexivity].
  - apply pushes_one, pushed_intro; [discriminate|exact E|apply emit_ok_text].
  - set (t := t0 :: t') in *. set (d := d0 :: d') in *.
    apply (pushes_more _ (push_ev st (mk_event (cur st) (KText t) t) (advance (cur st) t (d ++ rest)))).
    + apply pushed_intro; [discriminate|exact E|apply emit_ok_text].
    + apply pushes_one, pushed_intro; [discriminate|reflexivity|reflexivity].
Qed.

Lemma run_matcher_spec m st : step_spec st (run_matcher m st).
Proof.
  (* the constructors of [matcher] are generated in alphabetical order *)
  destruct m; cbn [run_matcher]; [apply m_comment_spec|apply m_control_line_spec|apply m_expression_spec|apply m_percent_spec
    |apply m_python_block_spec|apply do_tag_end_spec|apply m_tag_start_spec|apply m_text_spec].
Qed.

Lemma cascade_spec ms st : step_spec st (cascade ms st).
Proof.
  induction ms as [|m r IH]; cbn [cascade]; [exact I|].
  pose proof (run_matcher_spec m st) as H. destruct (run_matcher m st); [exact H|exact H|exact IH].
Qed.

Definition lex_init (s : str) : lstate :=
  {| cur := {| c_rest := s; c_off := 0; c_line := 1; c_colbase := 0; c_prev := None |}; tags := []; ctls := []; evs := [] |}.

Lemma lex_start_init s : lex_start s = lex_init s \/ pushed (lex_init s) (lex_start s).
Proof.
  unfold lex_start. pose proof (scan_coding_eq s) as E. destruct (scan_coding s) as [[src rest]|]; [right|left; reflexivity].
  apply (pushed_intro (lex_init s) KCoding src rest [] []); [apply E|apply E|reflexivity].
Qed.

Lemma lex_loop_inv (P : lstate -> Prop) : (forall st st', P st -> pushed st st' -> P st') ->
  forall fuel st es, P st -> lex_loop fuel st = (es, LexOk) ->
  exists st', P st' /\ c_rest (cur st') = [] /\ es = rev (evs st').
Proof.
  intros HP. induction fuel as [|f IH]; intros st es Hst; cbn [lex_loop]; [discriminate|].
  destruct (c_rest (cur st)) as [|x r] eqn:Er.
  - unfold finish. destruct (tags st); [|discriminate]. destruct (ctls st) as [|[[k l] p] rc]; [|discriminate].
    intros [= <-]. exists st. auto.
  - pose proof (cascade_spec matcher_order st) as Hs.
    destruct (cascade matcher_order st) as [st'|st' e l p|]; [|discriminate|discriminate].
    apply IH. exact (pushes_inv P HP st st' Hs Hst).
Qed.

Theorem lex_inv (P : lstate -> Prop) s es :
  P (lex_init s) -> (forall st st', P st -> pushed st st' -> P st') -> lex s = (es, LexOk) ->
  exists st', P st' /\ c_rest (cur st') = [] /\ es = rev (evs st').
Proof.
  intros H0 HP. unfold lex. apply (lex_loop_inv P HP).
  destruct (lex_start_init s) as [->|H]; [exact H0|exact (HP _ _ H0 H)].
Qed.

Lemma flat_map_rev_cons {A B} (f : A -> list B) x l : flat_map f (rev (x :: l)) = flat_map f (rev l) ++ f x.
Proof. cbn [rev]. rewrite flat_map_app. cbn [flat_map]. rewrite app_nil_r. reflexivity. Qed.

Definition srcs (st : lstate) : str := flat_map ev_src (rev (evs st)).

Definition tiled (s : str) (st : lstate) : Prop := srcs st ++ c_rest (cur st) = s.

Lemma tiled_pushed s st st' : tiled s st -> pushed st st' -> tiled s st'.
Proof.
  unfold tiled, srcs. intros H [k src rest tg ct _ Hr _]. cbn [evs cur advance c_rest].
  rewrite flat_map_rev_cons, <- app_assoc. cbn [mk_event ev_src]. rewrite Hr. exact H.
Qed.

(* the slices of the events of a successful lex are exactly the source, in order *)
Theorem lex_tiles s es : lex s = (es, LexOk) -> flat_map ev_src es = s.
Proof.
  intros H. destruct (lex_inv (tiled s) s es eq_refl (tiled_pushed s) H) as (st & Hi & Hr & ->).
  unfold tiled in Hi. rewrite Hr, app_nil_r in Hi. exact Hi.
Qed.

Definition evs_ok (st : lstate) : Prop := forallb emit_ok (evs st) = true.

Lemma evs_ok_pushed st st' : evs_ok st -> pushed st st' -> evs_ok st'.
Proof. unfold evs_ok. intros H [k src rest tg ct _ _ Hk]. cbn [evs forallb]. rewrite Hk. exact H. Qed.

Theorem lex_text_emits_slice s es : lex s = (es, LexOk) -> forallb emit_ok es = true.
Proof.
  intros H. destruct (lex_inv evs_ok s es eq_refl evs_ok_pushed H) as (st & Hok & _ & ->).
  unfold evs_ok in Hok. rewrite forallb_forall in *. intros e He. apply Hok, in_rev, He.
Qed.

Lemma pushed_shorter st st' : pushed st st' -> (length (c_rest (cur st')) < length (c_rest (cur st)))%nat.
Proof. intros [k src rest tg ct Hne Hr _]. exact (app_shorter src _ _ Hne Hr). Qed.

Lemma pushes_shorter st st' : pushes st st' -> (length (c_rest (cur st')) < length (c_rest (cur st)))%nat.
Proof. induction 1 as [st st' H|st st1 st' H _ IH]; apply pushed_shorter in H; lia. Qed.

Lemma lex_loop_fuel f1 : forall f2 st, (length (c_rest (cur st)) < f1)%nat -> (length (c_rest (cur st)) < f2)%nat ->
  lex_loop f1 st = lex_loop f2 st.
Proof.
  induction f1 as [|f IH]; intros f2 st H1 H2; [lia|]. destruct f2 as [|g]; [lia|]. cbn [lex_loop].
  destruct (c_rest (cur st)) as [|x r] eqn:Er; [reflexivity|].
  pose proof (cascade_spec matcher_order st) as Hs.
  destruct (cascade matcher_order st) as [st'|st' e l p|]; [|reflexivity|reflexivity].
  apply pushes_shorter in Hs. rewrite Er in Hs. apply IH; lia.
Qed.

Lemma m_text_matches st : c_rest (cur st) <> [] -> m_text st <> NoMatch.
Proof.
  intros Hne. unfold m_text. pose proof (scan_text_eq (c_rest (cur st)) (c_prev (cur st))) as E.
  destruct (scan_text _ _) as [[t d] rest]. destruct t; destruct d; try discriminate. destruct rest; [|discriminate].
  cbn [app] in E. congruence.
Qed.

Lemma cascade_matches ms st : In MText ms -> c_rest (cur st) <> [] -> cascade ms st <> NoMatch.
Proof.
  intros Hin Hne. induction ms as [|m r IH]; [destruct Hin|]. cbn [cascade].
  destruct (run_matcher m st) as [s1|s1 o l p|] eqn:E; [discriminate|discriminate|].
  destruct Hin as [->|Hin]; [exfalso; cbn [run_matcher] in E; revert E; apply m_text_matches; exact Hne|apply IH; exact Hin].
Qed.

Lemma text_in_order : In MText matcher_order.
Proof. unfold matcher_order. cbn [In]. tauto. Qed.

Lemma lex_loop_total fuel : forall st l p, (length (c_rest (cur st)) < fuel)%nat ->
  snd (lex_loop fuel st) <> LexErr EOutOfFuel l p.
Proof.
  induction fuel as [|f IH]; intros st l p Hlen; [lia|]. cbn [lex_loop].
  destruct (c_rest (cur st)) as [|x r] eqn:Er.
  - unfold finish. destruct (tags st); [|cbn [snd]; discriminate]. destruct (ctls st) as [|[[k l0] p0] rc]; cbn [snd]; discriminate.
  - pose proof (cascade_spec matcher_order st) as Hs.
    destruct (cascade matcher_order st) as [st'|st' e l0 p0|] eqn:Ec.
    + apply pushes_shorter in Hs. rewrite Er in Hs. apply IH. lia.
    + cbn [snd]. intros [= -> _ _]. exact (Hs eq_refl).
    + exfalso. revert Ec. apply cascade_matches; [apply text_in_order|rewrite Er; discriminate].
Qed.

Lemma lex_start_length s : (length (c_rest (cur (lex_start s))) <= length s)%nat.
Proof.
  destruct (lex_start_init s) as [->|H]; [apply le_n|]. apply pushed_shorter in H. cbn [lex_init cur c_rest] in H. lia.
Qed.

(* lexing every string ends with a parse or a Mako error -- the fuel is always enough *)
Theorem lex_total s l p : snd (lex s) <> LexErr EOutOfFuel l p.
Proof. unfold lex. apply lex_loop_total. pose proof (lex_start_length s). lia. Qed.

Lemma last_lf_base_app a : forall off base b,
  last_lf_base off base (a ++ b) = last_lf_base (off + N.of_nat (length a)) (last_lf_base off base a) b.
Proof.
  induction a as [|x r IH]; intros off base b; cbn [app last_lf_base length].
  - rewrite N.add_0_r. reflexivity.
  - rewrite IH. f_equal. lia.
Qed.

Definition cursor_at (pre : str) (c : cursor) : Prop :=
  c_off c = N.of_nat (length pre) /\ c_line c = line_of_prefix pre /\ c_colbase c = colbase_of_prefix pre.

Lemma cursor_at_advance pre c slice rest : cursor_at pre c -> cursor_at (pre ++ slice) (advance c slice rest).
Proof.
  intros [Ho [Hl Hc]]. unfold cursor_at, advance. cbn [c_off c_line c_colbase]. repeat split.
  - rewrite Ho, app_length. lia.
  - rewrite Hl. unfold line_of_prefix. rewrite countN_app. lia.
  - rewrite Hc, Ho. unfold colbase_of_prefix. rewrite last_lf_base_app, N.add_0_l. reflexivity.
Qed.

(* each event, read in order, sits at the position of the text before it *)
Fixpoint positions_ok (pre : str) (es : list event) : Prop :=
  match es with
  | [] => True
  | e :: r => ev_line e = line_of_prefix pre /\ ev_pos e = col_of_prefix pre /\ positions_ok (pre ++ ev_src e) r
  end.

Lemma positions_ok_app pre es e :
  positions_ok pre es ->
  ev_line e = line_of_prefix (pre ++ flat_map ev_src es) ->
  ev_pos e = col_of_prefix (pre ++ flat_map ev_src es) ->
  positions_ok pre (es ++ [e]).
Proof.
  revert pre. induction es as [|x r IH]; intros pre H Hl Hp; cbn [app positions_ok flat_map] in *.
  - rewrite app_nil_r in Hl, Hp. auto.
  - destruct H as [A [B C]]. repeat split; auto. apply IH; [exact C| |]; rewrite <- app_assoc; assumption.
Qed.

Definition placed (st : lstate) : Prop :=
  positions_ok [] (rev (evs st)) /\ cursor_at (srcs st) (cur st).

Lemma mk_event_pos pre c k src : cursor_at pre c ->
  ev_line (mk_event c k src) = line_of_prefix pre /\ ev_pos (mk_event c k src) = col_of_prefix pre.
Proof.
  intros [Ho [Hl Hc]]. unfold mk_event, cur_pos, col_of_prefix. cbn [ev_line ev_pos]. rewrite Ho, Hl, Hc. split; reflexivity.
Qed.

Lemma placed_pushed st st' : placed st -> pushed st st' -> placed st'.
Proof.
  intros [HP HC] [k src rest tg ct _ _ _]. destruct (mk_event_pos _ _ k src HC) as [A B]. split.
  - cbn [evs rev]. apply positions_ok_app; assumption.
  - unfold srcs. cbn [evs cur]. rewrite flat_map_rev_cons. apply cursor_at_advance, HC.
Qed.

(* every node of a successful lex carries the line and column of the offset it begins at *)
Theorem node_position s es : lex s = (es, LexOk) -> positions_ok [] es.
Proof.
  intros H. assert (H0 : placed (lex_init s)) by (repeat split). (* no event, line 1 and column 0 of the empty prefix *)
  destruct (lex_inv placed s es H0 placed_pushed H) as (st & [HP _] & _ & ->). exact HP.
Qed.
