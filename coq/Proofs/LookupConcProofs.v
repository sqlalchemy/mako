(* Proofs/LookupConcProofs.v -- C16: concurrent get_template.  MInv (the mutex names exactly the thread inside _load's critical
   section) is an invariant of every step and gives the three mutex theorems; on top of it, the phases of the one compilation
   (Section Once) are an invariant of thread steps and give first_requests_compile_once. *)
From MakoV Require Import Lib.Str Lib.Assoc Model.LookupConc.
Open Scope N_scope.

(* thread i is inside _load's try ... finally, between mutex.acquire and mutex.release *)
Definition crit (s : cst) (i : N) : bool :=
  match nget i (cthreads s) with Some t => in_critical (th_pc t) | None => false end.

(* the mutex names exactly the thread that is inside the critical section *)
Definition MInv (s : cst) : Prop := forall i, crit s i = true <-> cmutex s = Some i.

Lemma crit_at s i t : nget i (cthreads s) = Some t -> crit s i = in_critical (th_pc t).
Proof. intros H. unfold crit. rewrite H. reflexivity. Qed.

(* thread i moves to t' while the rest of the state becomes s0, which has the threads of s:
   the invariant survives if the mutex and t' agree about i and nothing changes for the others *)
Lemma minv_move s s0 i t' :
  MInv s -> cthreads s0 = cthreads s ->
  (in_critical (th_pc t') = true <-> cmutex s0 = Some i) ->
  (forall j, j <> i -> (cmutex s0 = Some j <-> cmutex s = Some j)) ->
  MInv (set_thread s0 i t').
Proof.
  intros H Hth Hi Hm j. unfold crit, set_thread. cbn [cthreads cmutex]. rewrite Hth.
  destruct (N.eq_dec j i) as [->|Hne].
  - rewrite nget_nset_same. exact Hi.
  - rewrite (nget_nset_other j i _ _ Hne), (Hm j Hne). apply H.
Qed.

(* a step that leaves the mutex alone and keeps i inside, or outside, the critical section *)
Lemma minv_keep s s0 i t t' :
  MInv s -> nget i (cthreads s) = Some t -> cthreads s0 = cthreads s -> cmutex s0 = cmutex s ->
  in_critical (th_pc t') = in_critical (th_pc t) ->
  MInv (set_thread s0 i t').
Proof.
  intros H Ht Hth Hm Hc. apply (minv_move s); [exact H|exact Hth| |intros j _; rewrite Hm; reflexivity].
  rewrite Hc, Hm, <- (crit_at s i t Ht). apply H.
Qed.

Lemma minv_tstep checks s i : MInv s -> MInv (tstep checks s i).
Proof.
  intros H. unfold tstep. destruct (nget i (cthreads s)) as [t|] eqn:Ht; [|exact H].
  pose proof (fun s0 t' => minv_keep s s0 i t t' H Ht) as Keep. pose proof (crit_at s i t Ht) as Hc.
  destruct (th_pc t) eqn:Hpc; cbn [in_critical] in *.
  - (* G0 *) destruct (nget (th_uri t) (ccoll s)); [destruct checks|]; apply Keep; auto.
  - (* C1 *) destruct (nget (th_uri t) (cfiles s)) as [f|]; [destruct (cf_mtime f * 1000 <=? t_ctime t0)|]; apply Keep; auto.
  - (* C2 *) apply Keep; auto.
  - (* E1 *) apply Keep; auto.
  - (* M1 *) destruct (nget (th_uri t) (cfiles s)); apply Keep; auto.
  - (* L0: the mutex is taken only when free, that is when nobody is inside *)
    destruct (cmutex s) as [j|] eqn:Hm; [exact H|].
    apply (minv_move s); [exact H|reflexivity|split; reflexivity|].
    intros j Hne. cbn [set_mutex cmutex]. rewrite Hm. split; [intros [= <-]; contradiction|discriminate].
  - (* L1 *) destruct (nget (th_uri t) (ccoll s)); apply Keep; auto.
  - (* L2 *) destruct (nget (th_uri t) (cfiles s)) as [f|]; [destruct (cf_ok f)|]; apply Keep; auto.
  - (* L3 *) apply Keep; auto.
  - (* L4 *) apply Keep; auto.
  - (* L5: i is inside, so it is i that holds the mutex it releases *)
    apply (minv_move s); [exact H|reflexivity|split; discriminate|].
    intros j Hne. cbn [set_mutex cmutex]. apply H in Hc. rewrite Hc. split; [discriminate|intros [= <-]; contradiction].
  - (* Done *) exact H.
Qed.

Lemma minv_run checks sched s : MInv s -> MInv (crun_conc checks s sched).
Proof.
  apply fold_left_inv. intros s' a _ H. destruct a; [apply minv_tstep; exact H|exact H..].
Qed.

Lemma nget_map_init i (uris : list (N * N)) t :
  nget i (map (fun iu => (fst iu, {| th_uri := snd iu; th_pc := G0; th_in_check := false |})) uris) = Some t ->
  exists v, In (i, v) uris /\ t = {| th_uri := v; th_pc := G0; th_in_check := false |}.
Proof.
  induction uris as [|[j v] r IH]; cbn [map nget fst snd]; [discriminate|].
  destruct (N.eqb_spec i j) as [->|_].
  - intros [= <-]. exists v. split; [left|]; reflexivity.
  - intros H. destruct (IH H) as [w [Hin Ht]]. exists w. split; [right; exact Hin|exact Ht].
Qed.

Lemma minv_init clock files coll uris next : MInv (conc_init clock files coll uris next).
Proof.
  intros i. unfold crit. cbn [conc_init cthreads cmutex].
  destruct (nget i _) as [t|] eqn:Ht; [|split; discriminate].
  destruct (nget_map_init i uris t Ht) as [v [_ ->]]. split; discriminate.
Qed.

Lemma minv_reachable checks clock files coll uris next sched :
  MInv (crun_conc checks (conc_init clock files coll uris next) sched).
Proof. apply minv_run, minv_init. Qed.

Lemma minv_exclusive s i j ti tj :
  MInv s -> nget i (cthreads s) = Some ti -> nget j (cthreads s) = Some tj ->
  in_critical (th_pc ti) = true -> in_critical (th_pc tj) = true -> i = j.
Proof.
  intros H Hi Hj Ci Cj. rewrite <- (crit_at s i ti Hi) in Ci. rewrite <- (crit_at s j tj Hj) in Cj.
  apply H in Ci, Cj. congruence.
Qed.

Lemma minv_released s i t r : MInv s -> nget i (cthreads s) = Some t -> th_pc t = Done r -> cmutex s <> Some i.
Proof. intros H Hi Hd Hm. apply H in Hm. rewrite (crit_at s i t Hi), Hd in Hm. discriminate. Qed.

Lemma minv_not_blocked s i t :
  MInv s -> nget i (cthreads s) = Some t -> is_done (th_pc t) = false -> exists j, enabled_th s j = true.
Proof.
  intros H Hi Hd. destruct (cmutex s) as [j|] eqn:Hm.
  - (* whoever holds the mutex is inside, and every step inside is enabled *)
    exists j. apply H in Hm. unfold crit in Hm. unfold enabled_th.
    destruct (nget j (cthreads s)) as [tj|]; [|discriminate]. destruct (th_pc tj); try discriminate; reflexivity.
  - exists i. unfold enabled_th. rewrite Hi, Hm. destruct (th_pc t); try reflexivity; discriminate.
Qed.

(* at most one thread is inside the critical section, in every reachable state *)
Theorem mutex_exclusive checks clock files coll uris next sched i j ti tj :
  let s := crun_conc checks (conc_init clock files coll uris next) sched in
  nget i (cthreads s) = Some ti -> nget j (cthreads s) = Some tj ->
  in_critical (th_pc ti) = true -> in_critical (th_pc tj) = true -> i = j.
Proof. intros s. apply minv_exclusive, minv_reachable. Qed.

(* a finished call has released the mutex (also when it raised) *)
Theorem mutex_always_released checks clock files coll uris next sched i t r :
  let s := crun_conc checks (conc_init clock files coll uris next) sched in
  nget i (cthreads s) = Some t -> th_pc t = Done r -> cmutex s <> Some i.
Proof. intros s. apply minv_released, minv_reachable. Qed.

(* no reachable state has unfinished threads all of which are blocked *)
Theorem no_thread_left_blocked checks clock files coll uris next sched i t :
  let s := crun_conc checks (conc_init clock files coll uris next) sched in
  nget i (cthreads s) = Some t -> is_done (th_pc t) = false ->
  exists j, enabled_th s j = true.
Proof. intros s. apply minv_not_blocked, minv_reachable. Qed.

(* "no call raises other than the documented lookup exceptions" is FALSE of the faithful model
   when files may vanish: known finding C16-F1 *)
Theorem only_documented_exceptions_refuted :
  exists sched t,
    nget 0 (cthreads (crun_conc true (conc_init 5000 [(1, {| cf_ver := 1; cf_mtime := 2; cf_ok := true |})] [] [(0, 1)] 0) sched)) = Some t /\
    th_pc t = Done COSError.
Proof.
  exists [Th 0; Th 0; EDelete 1; Th 0; Th 0; Th 0; Th 0; Th 0]. eexists. split; vm_compute; reflexivity.
Qed.

(* thread 1 starts its call after the file was rewritten, and is served what thread 0 compiled before (C16-F3) *)
Theorem fresh_at_call_start_refuted :
  exists pre post t e f,
    ~ In (Th 1) pre /\
    let s := crun_conc true (conc_init 5000 [(1, {| cf_ver := 1; cf_mtime := 2; cf_ok := true |})] [] [(0, 1); (1, 1)] 0)
                       (pre ++ [ETick 3000; EWrite 1 5 true] ++ post) in
    nget 1 (cthreads s) = Some t /\ th_pc t = Done (COk e) /\ nget 1 (cfiles s) = Some f /\
    t_ver e <> cf_ver f /\ t_ctime e + 1000 <= cf_mtime f * 1000.
Proof.
  exists [Th 0; Th 0; Th 0; Th 0; Th 0], [Th 1; Th 1; Th 1; Th 0; Th 0; Th 1; Th 1; Th 1].
  eexists. eexists. eexists. split.
  - intros [H|[H|[H|[H|[H|[]]]]]]; discriminate H.
  - cbn zeta. split; [vm_compute; reflexivity|]. split; [vm_compute; reflexivity|]. split; [vm_compute; reflexivity|].
    split; vm_compute; discriminate.
Qed.

Section Once.
  Variable checks : bool.
  Variable u clock next0 : N.
  Variable f : cfile.
  Hypothesis Hok : cf_ok f = true.
  Hypothesis Hpast : cf_mtime f * 1000 <= clock.

  Let e0 : tmpl := {| t_id := next0; t_ver := cf_ver f; t_ctime := clock |}.

  (* how far the one compilation has got in _load: Template(...) not yet called; called by the holder of the mutex, the
     result not yet in _collection; _collection[uri] holds it *)
  Inductive phase := Cold | Built | Stored.

  Definition at_phase (ph : phase) (s : cst) : Prop :=
    match ph with
    | Cold => cconstr s = 0 /\ cnext s = next0 /\ nget u (ccoll s) = None
    | Built => cconstr s = 1 /\ nget u (ccoll s) = None /\ cmutex s <> None
    | Stored => cconstr s = 1 /\ nget u (ccoll s) = Some e0
    end.

  (* where a thread can be in each phase, and what it carries.  While the entry is built but not stored, the thread that
     holds the mutex is at L3 and nobody else has passed L0.  The places left out (C2, E1, L4, a failed result) are not
     reached: the file is there, compiles and does not change *)
  Definition pc_ok (ph : phase) (p : pc) : Prop :=
    match p with
    | G0 | M1 | L0 => True
    | L1 => ph <> Built
    | L2 => ph = Cold
    | L3 e => ph = Built /\ e = e0
    | C1 e | L5 (COk e) | Done (COk e) => ph = Stored /\ e = e0
    | _ => False
    end.

  Definition threads_ok (ph : phase) (s : cst) : Prop :=
    forall i t, nget i (cthreads s) = Some t -> th_uri t = u /\ pc_ok ph (th_pc t).

  (* the setting of the theorem (no environment step: the clock and the healthy file stay, every call is for u) in some phase *)
  Definition Once (s : cst) : Prop :=
    cclock s = clock /\ nget u (cfiles s) = Some f /\ exists ph, at_phase ph s /\ threads_ok ph s.

  (* outside the critical section a thread's place stays good when the phase advances *)
  Lemma pc_ok_outside ph ph' p :
    in_critical p = false -> (ph = Stored -> ph' = Stored) -> pc_ok ph p -> pc_ok ph' p.
  Proof.
    intros Hc Hs Hp. destruct p as [ |e| | | | | | | | | |r]; try discriminate Hc; cbn [pc_ok] in *; try exact Hp.
    - destruct Hp as [Hp ->]. auto.
    - destruct r as [e| | | |]; try exact Hp. destruct Hp as [Hp ->]. auto.
  Qed.

  (* thread i goes to p' and the phase stays *)
  Lemma threads_stay ph s s0 i t p' :
    threads_ok ph s -> nget i (cthreads s) = Some t -> cthreads s0 = cthreads s -> pc_ok ph p' ->
    threads_ok ph (set_thread s0 i (goto t p')).
  Proof.
    intros H Ht Hth Hp. unfold threads_ok, set_thread. cbn [cthreads]. rewrite Hth.
    apply nget_nset_all; [exact H|]. split; [apply (H i t Ht)|exact Hp].
  Qed.

  (* thread i, inside the critical section, goes to p' and advances the phase *)
  Lemma threads_advance ph ph' s s0 i t p' :
    MInv s -> threads_ok ph s -> nget i (cthreads s) = Some t -> in_critical (th_pc t) = true ->
    cthreads s0 = cthreads s -> pc_ok ph' p' -> (ph = Stored -> ph' = Stored) ->
    threads_ok ph' (set_thread s0 i (goto t p')).
  Proof.
    intros HM H Ht Hc Hth Hp Hst j tj. unfold set_thread. cbn [cthreads]. rewrite Hth.
    destruct (N.eq_dec j i) as [->|Hne].
    - rewrite nget_nset_same. intros [= <-]. split; [apply (H i t Ht)|exact Hp].
    - rewrite (nget_nset_other j i _ _ Hne). intros Hj. destruct (H j tj Hj) as [Hu Hpj]. split; [exact Hu|].
      apply (pc_ok_outside ph); auto.
      destruct (in_critical (th_pc tj)) eqn:Cj; [|reflexivity]. destruct (Hne (minv_exclusive s j i tj t HM Hj Ht Cj Hc)).
  Qed.

  Lemma at_phase_coll ph s : at_phase ph s -> nget u (ccoll s) = match ph with Stored => Some e0 | _ => None end.
  Proof. destruct ph; intros H; apply H. Qed.

  (* a thread's own move: at_phase does not look at the threads *)
  Lemma once_move ph s0 i t' :
    cclock s0 = clock -> nget u (cfiles s0) = Some f -> at_phase ph s0 -> threads_ok ph (set_thread s0 i t') ->
    Once (set_thread s0 i t').
  Proof. intros Hclk Hfile Hph Hth. split; [exact Hclk|]. split; [exact Hfile|]. exists ph. split; [exact Hph|exact Hth]. Qed.

  Lemma once_tstep s i : MInv s -> Once s -> Once (tstep checks s i).
  Proof.
    intros HM HO. pose proof HO as (Hclk & Hfile & ph & Hph & Hth). unfold tstep.
    destruct (nget i (cthreads s)) as [t|] eqn:Ht; [|exact HO].
    destruct (Hth i t Ht) as [Hu Hp]. rewrite Hu, ?Hfile, ?(at_phase_coll ph s Hph).
    assert (Stay : forall p', pc_ok ph p' -> Once (set_thread s i (goto t p'))).
    { intros p' Hp'. apply (once_move ph); auto. apply (threads_stay ph s); auto. }
    assert (Hc : crit s i = in_critical (th_pc t)) by (apply crit_at; exact Ht).
    destruct (th_pc t) as [ |e| | | | | | |e| |r|r] eqn:Hpc; cbn [pc_ok in_critical] in Hp, Hc; try contradiction.
    - (* G0 *) destruct ph; apply Stay; [exact I|exact I|destruct checks; split; reflexivity].
    - (* C1 *) destruct Hp as [-> ->].
      assert (E : (cf_mtime f * 1000 <=? t_ctime e0) = true) by (apply N.leb_le; exact Hpast). rewrite E.
      apply Stay. split; reflexivity.
    - (* M1 *) apply Stay. exact I.
    - (* L0: in phase Built the mutex is held *)
      destruct (cmutex s) eqn:Hm; [exact HO|].
      assert (Hnb : ph <> Built) by (intros ->; apply Hph; exact Hm).
      apply (once_move ph); auto; [destruct ph; auto; contradiction|]. apply (threads_stay ph s); auto.
    - (* L1 *) destruct ph; [|contradiction|]; apply Stay; [reflexivity|split; reflexivity].
    - (* L2: the one construction, by the thread that holds the mutex *)
      subst ph. destruct Hph as (Hc0 & Hn0 & Hcoll). rewrite Hok, Hn0, Hclk. apply HM in Hc.
      apply (once_move Built); auto.
      + cbn [at_phase set_thread cconstr ccoll cmutex]. rewrite Hc0, Hc. repeat split; [exact Hcoll|discriminate].
      + apply (threads_advance Cold Built s); auto; try discriminate; [rewrite Hpc; reflexivity|split; reflexivity].
    - (* L3: it stores the template *)
      destruct Hp as [-> ->]. apply (once_move Stored); auto.
      + split; [apply Hph|apply nget_nset_same].
      + apply (threads_advance Built Stored s); auto; try discriminate; [rewrite Hpc; reflexivity|split; reflexivity].
    - (* L5 *) destruct r; try contradiction. destruct Hp as [-> ->].
      apply (once_move Stored); auto. apply (threads_stay Stored s); auto. split; reflexivity.
    - (* Done *) exact HO.
  Qed.

  Definition OInv (s : cst) : Prop := MInv s /\ Once s.

  Lemma oinv_run ths s : OInv s -> OInv (crun_conc checks s (map Th ths)).
  Proof.
    apply fold_left_inv. intros s' a Ha [HM HO]. apply in_map_iff in Ha as [i [<- _]].
    split; [apply minv_tstep; exact HM|apply once_tstep; assumption].
  Qed.

  (* no entry yet, a healthy file not newer than the clock, no environment steps, every thread
     asks for the same URI: whatever the schedule, the template is compiled at most once and
     every call that has finished returned the very same object *)
  Theorem first_requests_compile_once uris ths :
    (forall iu, In iu uris -> snd iu = u) ->
    let s := crun_conc checks (conc_init clock [(u, f)] [] uris next0) (map Th ths) in
    cconstr s <= 1 /\
    (forall i t r, nget i (cthreads s) = Some t -> th_pc t = Done r -> r = COk e0).
  Proof.
    intros Hu s.
    assert (H0 : OInv (conc_init clock [(u, f)] [] uris next0)).
    { split; [apply minv_init|]. split; [reflexivity|]. split; [cbn; rewrite N.eqb_refl; reflexivity|].
      exists Cold. split; [repeat split|]. intros i t Ht.
      destruct (nget_map_init i uris t Ht) as [v [Hin ->]]. split; [apply (Hu _ Hin)|exact I]. }
    destruct (oinv_run ths _ H0) as (_ & _ & _ & ph & Hph & Hth). fold s in Hph, Hth. split.
    - destruct ph; cbn [at_phase] in Hph; decompose [and] Hph; lia.
    - intros i t r Hi Hd. destruct (Hth i t Hi) as [_ Hp]. rewrite Hd in Hp. cbn in Hp.
      destruct r; try contradiction. destruct Hp as [_ ->]. reflexivity.
  Qed.
End Once.
