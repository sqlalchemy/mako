(* Proofs/ModFileProofs.v -- C15: module files.  The module path never holds a partial file: an invariant over every schedule
   of writers and crashes, from the shape of one writer step (steps_to).  The staleness decision, by cases.  verify_directory
   never raises: an invariant over every interleaving of its callers. *)
From MakoV Require Import Lib.Str Lib.Assoc Model.ModFile.
Open Scope N_scope.

(* the model's wget/wset and tget/tset are Lib.Assoc's nget/nset at one type each: equal, though not convertible *)
Lemma wget_nget i l : wget i l = nget i l.
Proof. induction l as [|[j w] r IH]; cbn [wget nget]; [reflexivity|]. rewrite IH. reflexivity. Qed.

Lemma wset_nset i w l : wset i w l = nset i w l.
Proof. induction l as [|[j w'] r IH]; cbn [wset nset]; [reflexivity|]. rewrite IH. reflexivity. Qed.

Lemma tget_nget i l : tget i l = nget i l.
Proof. induction l as [|[j c] r IH]; cbn [tget nget]; [reflexivity|]. rewrite IH. reflexivity. Qed.

Lemma tset_nset i c l : tset i c l = nset i c l.
Proof. induction l as [|[j c'] r IH]; cbn [tset nset]; [reflexivity|]. rewrite IH. reflexivity. Qed.

Lemma wget_wset_same i w l : wget i (wset i w l) = Some w.
Proof. rewrite wset_nset, wget_nget. apply nget_nset_same. Qed.

Lemma wget_wset_other i j w l : i <> j -> wget i (wset j w l) = wget i l.
Proof. rewrite wset_nset, !wget_nget. apply nget_nset_other. Qed.

Lemma tget_tset_same i c l : tget i (tset i c l) = Some c.
Proof. rewrite tset_nset, tget_nget. apply nget_nset_same. Qed.

Lemma tget_tset_other i j c l : i <> j -> tget i (tset j c l) = tget i l.
Proof. rewrite tset_nset, !tget_nget. apply nget_nset_other. Qed.

Lemma wget_In i w l : wget i l = Some w -> In (i, w) l.
Proof. rewrite wget_nget. apply nget_In. Qed.

Lemma tget_tdel_other i j l : i <> j -> tget i (tdel j l) = tget i l.
Proof.
  intros H. induction l as [|[k c'] r IH]; cbn [tdel tget]; [reflexivity|].
  destruct (j =? k) eqn:E; cbn [tget].
  - apply N.eqb_eq in E. subst k. apply N.eqb_neq in H. rewrite H. exact IH.
  - destruct (i =? k); [reflexivity|exact IH].
Qed.

Definition full (g t : N) : content := {| gen := g; written := t; total := t |}.

(* what one file-system call of writer i, whose record is w, in _compile_module_file makes of d: its pc moves, no temp file
   but its own is touched (mkstemp), and the module path changes only by the rename, to its temp file.  What is said of
   the new pc is what writer_inv needs: a written temp file is complete, and closing it leaves the files alone *)
Inductive steps_to (d : dirst) (i : N) (w : writer) : dirst -> Prop :=
| st_same : steps_to d i w d
| st_move p T TS :
    (forall j, j <> i -> tget j TS = tget j (temps d)) ->
    (T = target d \/ w_pc w = WClosed /\ T = tget i (temps d)) ->
    match p with
    | WWritten => tget i TS = Some (full (w_gen w) (w_total w))
    | WClosed => w_pc w = WWritten /\ TS = temps d
    | _ => True
    end ->
    steps_to d i w {| target := T; temps := TS; writers := wset i (set_pc w p) (writers d) |}.

Lemma wstep_shape d i a w : wget i (writers d) = Some w -> steps_to d i w (wstep d i a).
Proof.
  intros Hw. unfold wstep. rewrite Hw.
  destruct a as [| |n], (w_pc w) eqn:Hpc; try apply st_same; apply st_move;
    auto using tget_tset_same, tget_tset_other, tget_tdel_other.
  (* left: Step at WInit, where the new pc depends on the module file found *)
  destruct (match target d with Some c => gen c =? w_gen w | None => false end); exact I.
Qed.

Section Inv.
  Variable t0 : option content.
  Variable ws : list (N * writer).

  (* the module file is the one found at the start, or the complete module of one of the writers *)
  Definition target_inv (t : option content) : Prop :=
    t = t0 \/ exists i w0, wget i ws = Some w0 /\ t = Some (full (w_gen w0) (w_total w0)).

  (* a writer keeps the generation and size it started with, and once its temp file is written it is complete *)
  Definition writer_inv (d : dirst) : Prop :=
    forall i w, wget i (writers d) = Some w ->
      (exists w0, wget i ws = Some w0 /\ w_gen w = w_gen w0 /\ w_total w = w_total w0) /\
      (match w_pc w with
       | WWritten | WClosed => tget i (temps d) = Some (full (w_gen w) (w_total w))
       | _ => True
       end).

  Definition Inv (d : dirst) : Prop := target_inv (target d) /\ writer_inv d.

  Lemma inv_start : fresh_writers ws = true -> Inv (start t0 ws).
  Proof.
    intros Hf. split; [left; reflexivity|]. intros i w H. cbn [start writers] in H. split.
    - exists w. auto.
    - unfold fresh_writers in Hf. rewrite forallb_forall in Hf.
      specialize (Hf (i, w) (wget_In i w ws H)). cbn [snd] in Hf. destruct (w_pc w); try exact I; discriminate.
  Qed.

  Lemma inv_step d i a : Inv d -> Inv (wstep d i a).
  Proof.
    intros [HT HW]. destruct (wget i (writers d)) as [w|] eqn:Hw; [|unfold wstep; rewrite Hw; split; assumption].
    destruct (HW i w Hw) as [(w0 & Hw0 & Hg & Htot) Htemp].
    destruct (wstep_shape d i a w Hw) as [|p T TS Hframe Htarget Hp]; [split; assumption|]. split.
    - (* the rename installs a temp file that is complete *)
      destruct Htarget as [->|[Hpc ->]]; [exact HT|]. right. exists i, w0. rewrite Hpc in Htemp. rewrite Htemp, Hg, Htot. auto.
    - intros k w' Hk. cbn [writers temps] in *. destruct (N.eq_dec k i) as [->|Hne].
      + rewrite wget_wset_same in Hk. injection Hk as <-. split; [exists w0; auto|]. cbn [set_pc w_pc w_gen w_total].
        destruct p; try exact I; [exact Hp|]. destruct Hp as [Hpc ->]. rewrite Hpc in Htemp. exact Htemp.
      + rewrite (wget_wset_other k i _ _ Hne) in Hk. rewrite (Hframe k Hne). exact (HW k w' Hk).
  Qed.

  Lemma inv_run s : forall d, Inv d -> Inv (run_sched d s).
  Proof. apply fold_left_inv. intros d ia _. apply inv_step. Qed.

  Lemma target_inv_ok t :
    (match t0 with None => True | Some c0 => complete c0 = true end) ->
    target_inv t -> target_ok t0 ws t = true.
  Proof.
    intros H0 [->|[i [w0 [Hw ->]]]].
    - unfold target_ok. destruct t0 as [c0|]; [|reflexivity].
      rewrite H0, !N.eqb_refl. reflexivity.
    - unfold target_ok, full, complete. cbn [written total gen]. rewrite N.eqb_refl. cbn [andb].
      apply orb_true_iff. right. apply existsb_exists. exists (i, w0).
      split; [apply wget_In; exact Hw|]. cbn [snd]. rewrite !N.eqb_refl. reflexivity.
  Qed.
End Inv.

(* whatever the previous module was (complete or not): it is still there, or the complete module of one of the writers is *)
Theorem target_after_any_schedule t0 ws sched :
  fresh_writers ws = true -> target_inv t0 ws (target (run_sched (start t0 ws) sched)).
Proof. intros Hf. apply (inv_run t0 ws sched), inv_start. exact Hf. Qed.

(* Whatever instants any number of writers die at, and however they interleave, the module
   path holds no file (only if it held none before), the complete previous module, or the
   complete module of one of the writers -- never a partial file. *)
Theorem crash_atomic_concurrent t0 ws sched :
  (match t0 with None => True | Some c0 => complete c0 = true end) ->
  fresh_writers ws = true ->
  target_ok t0 ws (target (run_sched (start t0 ws) sched)) = true.
Proof. intros H0 Hf. apply target_inv_ok; [exact H0|apply target_after_any_schedule; exact Hf]. Qed.

(* a writer that is never crashed and is scheduled four times installs its complete module
   when it runs alone (liveness of the single-writer case) *)
Theorem single_writer_completes t0 g n :
  target (run_sched (start t0 [(0, {| w_gen := g; w_total := n; w_pc := WStart |})])
            [(0, Step); (0, Step); (0, Step); (0, Step)]) = Some (full g n).
Proof. reflexivity. Qed.

Theorem stale_is_rewritten cur src m :
  decide cur src m = Rewrite <->
  (m = None \/ exists mt mg same, m = Some (mt, mg, same) /\ (mt < src \/ mg <> cur \/ same = false)).
Proof.
  unfold decide. destruct m as [[[mt mg] same]|].
  - destruct (N.ltb_spec mt src) as [Hlt|Hge].
    + split; [intros _; right; exists mt, mg, same; auto|reflexivity].
    + destruct (N.eqb_spec mg cur) as [->|Hne]; cbn [andb].
      * destruct same.
        -- split; [discriminate|]. intros [H|[mt' [mg' [same' [[= <- <- <-] [H|[H|H]]]]]]]; [discriminate|lia|congruence|discriminate].
        -- split; [intros _; right; exists mt, cur, false; auto|reflexivity].
      * split; [intros _; right; exists mt, mg, same; auto|reflexivity].
  - split; [intros _; left; reflexivity|reflexivity].
Qed.

Theorem fresh_is_reused cur src mt :
  src <= mt -> decide cur src (Some (mt, cur, true)) = Reuse.
Proof.
  intros H. unfold decide. assert (E : (mt <? src) = false) by (apply N.ltb_ge; exact H).
  rewrite E, N.eqb_refl. reflexivity.
Qed.

(* the module of another source file is never reused, however fresh it looks *)
Theorem foreign_module_is_rewritten cur src mt mg :
  decide cur src (Some (mt, mg, false)) = Rewrite.
Proof. unfold decide. destruct (mt <? src); [reflexivity|]. rewrite andb_false_r. reflexivity. Qed.

(* the module is (re)written exactly once when a rewrite is due and not at all otherwise *)
Theorem writer_called_exactly_when_due cur src m :
  writes_performed cur src m = match decide cur src m with Rewrite => 1 | Reuse => 0 end.
Proof.
  unfold writes_performed, decide. destruct m as [[[mt mg] same]|].
  - destruct (mt <? src); [reflexivity|].
    destruct ((mg =? cur) && same); reflexivity.
  - reflexivity.
Qed.

(* nobody has raised; a caller about to call makedirs has not tried before; after a first try the directory exists *)
Definition vinv (s : vstate) : Prop :=
  forall i t, nget i (vthreads s) = Some t ->
    v_pc t <> VRaised /\ (v_pc t = VMake -> v_tries t = 0) /\ (v_tries t <> 0 -> dir_exists s = true).

Lemma vinv_step s i : vinv s -> vinv (vstep s i).
Proof.
  intros H. unfold vstep. destruct (nget i (vthreads s)) as [t|] eqn:Ht; [|exact H].
  destruct (H i t Ht) as (Hr & Hmk & Hex).
  destruct (v_pc t) eqn:Hpc; try exact H; unfold vinv.
  - (* VCheck *)
    cbn [vthreads dir_exists]. apply nget_nset_all; [exact H|]. cbn [v_pc v_tries].
    destruct (dir_exists s); (split; [discriminate|]); (split; [|exact Hex]); [discriminate|].
    intros _. destruct (N.eq_dec (v_tries t) 0) as [E|E]; [exact E|]. discriminate (Hex E).
  - (* VMake: the first try, so the limit is not reached; whoever made it, the directory is there afterwards *)
    rewrite (Hmk eq_refl). change (5 <? 0 + 1) with false.
    assert (H' : forall j tj, nget j (vthreads s) = Some tj ->
              v_pc tj <> VRaised /\ (v_pc tj = VMake -> v_tries tj = 0) /\ (v_tries tj <> 0 -> true = true)).
    { intros j tj Hj. destruct (H j tj Hj) as (A & B & _). auto. }
    destruct (dir_exists s); cbn [vthreads dir_exists]; (apply nget_nset_all; [exact H'|]); cbn [v_pc v_tries];
      (split; [discriminate|]); (split; [discriminate|reflexivity]).
Qed.

Lemma vinv_run sched : forall s0, vinv s0 -> vinv (vrun s0 sched).
Proof. apply fold_left_inv. intros s i _. apply vinv_step. Qed.

Theorem verify_directory_never_raises ts sched i t :
  vfresh ts = true ->
  nget i (vthreads (vrun {| dir_exists := false; vthreads := ts |} sched)) = Some t ->
  v_pc t <> VRaised.
Proof.
  intros Hf Ht.
  assert (Hinv : vinv (vrun {| dir_exists := false; vthreads := ts |} sched)).
  { apply vinv_run. intros j u Hu. cbn [vthreads dir_exists] in *. unfold vfresh in Hf. rewrite forallb_forall in Hf.
    specialize (Hf (j, u) (nget_In j u ts Hu)). cbn [snd] in Hf.
    destruct (v_pc u) eqn:E; try discriminate. apply N.eqb_eq in Hf.
    repeat split; try discriminate; contradiction. }
  apply (Hinv i t Ht).
Qed.
