(* Proofs/LineMapProofs.v -- C12: the dense map is the floor lookup of the sparse one; a run of printer
   operations writes the sparse map only at the module lines it passes (passes); from there to the
   line a traceback shows *)
From MakoV Require Import Lib.Str Model.LineMap.
Open Scope N_scope.

Lemma full_from_length lm : forall count cur m, length (full_from lm cur m count) = count.
Proof. induction count as [|c IH]; intros cur m; cbn [full_from length]; [reflexivity|]. rewrite IH. reflexivity. Qed.

Lemma full_from_spec lm : forall count cur start i, (i < count)%nat ->
  (forall k v, start <= k <= start + N.of_nat i -> assocN k lm = Some v ->
     (forall k', k < k' <= start + N.of_nat i -> assocN k' lm = None) ->
     nth_error (full_from lm cur start count) i = Some v) /\
  ((forall k', start <= k' <= start + N.of_nat i -> assocN k' lm = None) ->
     nth_error (full_from lm cur start count) i = Some cur).
Proof.
  induction count as [|c IH]; intros cur start i Hi; [lia|].
  cbn [full_from]. destruct i as [|i']; cbn [nth_error].
  - split.
    + intros k v Hk Hv _. assert (k = start) by lia. subst k. rewrite Hv. reflexivity.
    + intros Hn. rewrite (Hn start) by lia. reflexivity.
  - set (cur' := match assocN start lm with Some v => v | None => cur end).
    destruct (IH cur' (start + 1) i' ltac:(lia)) as [IH1 IH2]. clear IH.
    split.
    + intros k v Hk Hv Hlate. destruct (N.eq_dec k start) as [->|Hne].
      * (* the entry is at the first line: nothing later *)
        rewrite IH2; [unfold cur'; rewrite Hv; reflexivity|]. intros k' Hk'. apply Hlate. lia.
      * apply (IH1 k v); [lia|exact Hv|]. intros k' Hk'. apply Hlate. lia.
    + intros Hn. rewrite IH2; [unfold cur'; rewrite (Hn start) by lia; reflexivity|].
      intros k' Hk'. apply Hn. lia.
Qed.

(* for every sparse map and every module line below its greatest key: the dense map gives the value
   of the nearest entry at or before that line, and 1 when there is none *)
Theorem full_map_is_floor lm m : 1 <= m < maxkey lm ->
  (forall k v, 1 <= k <= m -> assocN k lm = Some v -> (forall k', k < k' <= m -> assocN k' lm = None) ->
     nth_error (full_line_map lm) (N.to_nat (m - 1)) = Some v) /\
  ((forall k', 1 <= k' <= m -> assocN k' lm = None) -> nth_error (full_line_map lm) (N.to_nat (m - 1)) = Some 1).
Proof.
  intros Hm. unfold full_line_map.
  assert (Hi : (N.to_nat (m - 1) < N.to_nat (maxkey lm - 1))%nat) by lia.
  destruct (full_from_spec lm _ 1 1 _ Hi) as [H1 H2].
  assert (E : 1 + N.of_nat (N.to_nat (m - 1)) = m) by lia. rewrite E in *. split; assumption.
Qed.

Theorem full_map_length lm : length (full_line_map lm) = N.to_nat (maxkey lm - 1).
Proof. apply full_from_length. Qed.

Lemma has_key_assocN k m : has_key k m = match assocN k m with Some _ => true | None => false end.
Proof.
  induction m as [|[k' v'] r IH]; cbn [has_key existsb assocN fst]; [reflexivity|].
  rewrite (N.eqb_sym k' k). destruct (k =? k'); [reflexivity|exact IH].
Qed.

Lemma set_key_assocN k v m j : assocN j (set_key k v m) = if j =? k then Some v else assocN j m.
Proof.
  induction m as [|[k' v'] r IH]; cbn [set_key assocN]; [reflexivity|].
  destruct (N.eqb_spec k' k) as [->|Hne]; cbn [assocN].
  - destruct (j =? k); reflexivity.
  - rewrite IH. destruct (N.eqb_spec j k') as [->|_]; [|reflexivity].
    apply N.eqb_neq in Hne. rewrite Hne. reflexivity.
Qed.

Lemma maxkey_ge k v m : assocN k m = Some v -> k <= maxkey m.
Proof.
  induction m as [|[k' v'] r IH]; intros H; [discriminate|]. cbn [assocN maxkey] in *.
  destruct (N.eqb_spec k k') as [->|Hne]; [lia|]. specialize (IH H). lia.
Qed.

Lemma start_source_lineno s n : lineno (start_source s n) = lineno s.
Proof. unfold start_source. destruct (has_key _ _); reflexivity. Qed.

Lemma start_source_assocN s n k :
  assocN k (smap (start_source s n)) =
  match assocN k (smap s) with Some v => Some v | None => if k =? lineno s then Some n else None end.
Proof.
  unfold start_source. rewrite has_key_assocN. destruct (assocN (lineno s) (smap s)) eqn:E; cbn [smap].
  - destruct (assocN k (smap s)) eqn:Ek; [reflexivity|]. destruct (N.eqb_spec k (lineno s)) as [->|_]; congruence.
  - rewrite assocN_app. reflexivity.
Qed.

(* a run of printer operations moves the line counter forward and writes the map only at the
   lines it passes: entries before the old counter and after the new one are as they were *)
Definition passes (s s' : pst) : Prop :=
  lineno s <= lineno s' /\ forall k, k < lineno s \/ lineno s' < k -> assocN k (smap s') = assocN k (smap s).

Lemma passes_refl s : passes s s.
Proof. split; [lia|reflexivity]. Qed.

Lemma passes_trans a b c : passes a b -> passes b c -> passes a c.
Proof. intros [H1 H2] [H3 H4]. split; [lia|]. intros k Hk. rewrite H4, H2 by lia. reflexivity. Qed.

Lemma start_source_passes s n : passes s (start_source s n).
Proof.
  split; [rewrite start_source_lineno; lia|]. intros k Hk. rewrite start_source_lineno in Hk.
  rewrite start_source_assocN. destruct (assocN k (smap s)); [reflexivity|].
  destruct (N.eqb_spec k (lineno s)); [lia|reflexivity].
Qed.

Lemma advance_passes s k : passes s (advance s k).
Proof. split; [cbn; lia|reflexivity]. Qed.

Lemma block_passes : forall n s st, passes s (block s n st).
Proof.
  induction n as [|n IH]; intros s st; [apply passes_refl|]. cbn [block].
  eapply passes_trans; [|apply IH]. eapply passes_trans; [|apply advance_passes].
  destruct st; [apply start_source_passes|apply passes_refl].
Qed.

Lemma pstep_passes s o : passes s (pstep s o).
Proof.
  destruct o; cbn [pstep].
  - apply start_source_passes.
  - apply advance_passes.
  - apply block_passes.
  - apply advance_passes.
  - split; [cbn; lia|]. intros k Hk. cbn [lineno smap] in *. rewrite set_key_assocN.
    destruct (N.eqb_spec k (lineno s)); [lia|reflexivity].
Qed.

Lemma pstep_run_passes ops s : passes s (fold_left pstep ops s).
Proof.
  apply fold_left_inv; [|apply passes_refl]. intros s' o _ H. eapply passes_trans; [exact H|apply pstep_passes].
Qed.

(* every entry is at or below the line counter, in every reachable state *)
Definition keys_below (s : pst) : Prop := forall k, lineno s < k -> assocN k (smap s) = None.

Lemma passes_keys_below s s' : passes s s' -> keys_below s -> keys_below s'.
Proof. intros [H1 H2] H k Hk. rewrite H2 by lia. apply H. lia. Qed.

Theorem reachable_keys_below ops : keys_below (prun ops).
Proof. apply (passes_keys_below pst0); [apply pstep_run_passes|]. intros k _. reflexivity. Qed.

(* the construct that starts at a fresh module line owns the lines it writes: after start_source(n)
   at a line without an entry and k written lines, the sparse map has n at the first of them and
   nothing at the others -- whatever is emitted afterwards -- so by full_map_is_floor every one of
   the k lines is translated to n *)
Theorem construct_owns_its_lines s n k rest :
  keys_below s -> assocN (lineno s) (smap s) = None -> 1 <= k -> Forall (fun o => o <> PMeta) rest ->
  let s' := fold_left pstep (PStart n :: PWrite k :: rest) s in
  assocN (lineno s) (smap s') = Some n /\
  (forall j, lineno s < j < lineno s + k -> assocN j (smap s') = None) /\
  lineno s + k <= lineno s'.
Proof.
  (* rest may hold PMeta as well: it passes too, and writes at or above line lineno s + k *)
  intros Hbelow Hfresh Hk _. cbn [fold_left pstep].
  destruct (pstep_run_passes rest (advance (start_source s n) k)) as [L1 L2].
  cbn [advance lineno smap] in L1, L2. rewrite start_source_lineno in L1, L2. cbn zeta. repeat split.
  - rewrite L2, start_source_assocN, Hfresh, N.eqb_refl by lia. reflexivity.
  - intros j Hj. rewrite L2, start_source_assocN, Hbelow by lia.
    destruct (N.eqb_spec j (lineno s)); [lia|reflexivity].
  - exact L1.
Qed.

(* a second start_source at the same module line is ignored: when a construct writes no line of its
   own, the next construct's lines are attributed to it (the first entry wins) *)
Theorem first_entry_wins s n1 n2 :
  assocN (lineno s) (smap s) = None ->
  assocN (lineno s) (smap (fold_left pstep [PStart n1; PStart n2] s)) = Some n1.
Proof.
  intros H. cbn [fold_left pstep]. rewrite !start_source_assocN, H, N.eqb_refl. reflexivity.
Qed.

(* a code block with a starting line: the i-th line of the block is translated to start + i *)
Theorem block_lines_exact : forall n s st i,
  keys_below s -> assocN (lineno s) (smap s) = None -> (i < n)%nat ->
  assocN (lineno s + N.of_nat i) (smap (block s n (Some st))) = Some (st + N.of_nat i).
Proof.
  induction n as [|n IH]; intros s st i Hb Hf Hi; [lia|]. cbn [block].
  set (s1 := advance (start_source s st) 1).
  assert (Hl1 : lineno s1 = lineno s + 1) by (unfold s1; cbn [advance lineno]; rewrite start_source_lineno; reflexivity).
  destruct i as [|i'].
  - destruct (block_passes n s1 (Some (st + 1))) as [_ L]. rewrite !N.add_0_r, L by lia.
    unfold s1. cbn [advance smap]. rewrite start_source_assocN, Hf, N.eqb_refl. reflexivity.
  - rewrite Nat2N.inj_succ, <- N.add_1_l, !N.add_assoc, <- Hl1. apply IH; [| |lia].
    + apply (passes_keys_below s); [|exact Hb]. eapply passes_trans; [apply start_source_passes|apply advance_passes].
    + rewrite Hl1. unfold s1. cbn [advance smap]. rewrite start_source_assocN, Hb by lia.
      destruct (N.eqb_spec (lineno s + 1) (lineno s)); [lia|reflexivity].
Qed.

(* what a construct owns in the sparse map it owns in the dense one *)
Lemma full_map_owned lm a b n j :
  1 <= a -> assocN a lm = Some n -> (forall q, a < q < b -> assocN q lm = None) -> b <= maxkey lm -> a <= j < b ->
  nth_error (full_line_map lm) (N.to_nat (j - 1)) = Some n.
Proof.
  intros Ha Hn Hnone Hb Hj. destruct (full_map_is_floor lm j ltac:(lia)) as [F _].
  apply (F a n); [lia|exact Hn|]. intros q Hq. apply Hnone. lia.
Qed.

Theorem lines_translate_to_construct pre n k rest :
  let s := prun pre in
  assocN (lineno s) (smap s) = None -> 1 <= k -> Forall (fun o => o <> PMeta) rest ->
  let final := fold_left pstep ((PStart n :: PWrite k :: rest) ++ [PMeta]) s in
  forall j, lineno s <= j < lineno s + k ->
  nth_error (full_line_map (smap final)) (N.to_nat (j - 1)) = Some n.
Proof.
  intros s Hfresh Hk Hrest final j Hj.
  destruct (pstep_run_passes pre pst0) as [H1 _]. change (1 <= lineno s) in H1.
  destruct (construct_owns_its_lines s n k rest (reachable_keys_below pre) Hfresh Hk Hrest) as (A & B & C).
  unfold final. rewrite fold_left_app. set (s' := fold_left pstep (PStart n :: PWrite k :: rest) s) in *.
  (* the sentinel is written at the last line, above the construct, and makes that line the greatest key *)
  destruct (pstep_passes s' PMeta) as [_ L]. cbn [fold_left].
  apply (full_map_owned _ (lineno s) (lineno s + k)); [exact H1| | | |exact Hj].
  - rewrite L by lia. exact A.
  - intros q Hq. rewrite L by lia. apply B. exact Hq.
  - apply (N.le_trans _ _ _ C), (maxkey_ge _ (maxkey (smap s'))). cbn [pstep smap]. rewrite set_key_assocN, N.eqb_refl. reflexivity.
Qed.

Theorem plain_frames_unchanged f : f_module f = None -> translate f = TPlain (f_lineno f).
Proof. intros H. unfold translate. rewrite H. reflexivity. Qed.

(* one map per module: the translation of a frame depends only on its own module's map *)
Theorem several_templates f g : f_module f = f_module g -> f_lineno f = f_lineno g -> translate f = translate g.
Proof. intros H1 H2. unfold translate. rewrite H1, H2. reflexivity. Qed.

Theorem template_frame_translated lm nlines m v :
  1 <= m < maxkey lm -> nth_error (full_line_map lm) (N.to_nat (m - 1)) = Some v -> 1 <= v <= nlines ->
  translate {| f_module := Some (lm, nlines); f_lineno := m |} = TTemplate m v (Some (v - 1)).
Proof.
  intros Hm Hn Hv. unfold translate. cbn [f_module f_lineno].
  destruct (N.eqb_spec m 0); [lia|]. rewrite Hn.
  destruct (N.leb_spec v nlines); [|lia]. destruct (N.eqb_spec v 0); [lia|reflexivity].
Qed.

Lemma select_from_last recs lnm v ix : v <> 0 -> select_from (recs ++ [TTemplate lnm v ix]) false = Some v.
Proof.
  intros Hv. apply N.eqb_neq in Hv. induction recs as [|x rest IH]; cbn [app select_from]; [rewrite Hv|rewrite IH]; reflexivity.
Qed.

(* the reported line is that of the innermost template frame -- provided that frame is not the
   first record of the traceback *)
Theorem innermost_template_frame_reported_partial recs lnm v ix :
  v <> 0 -> recs <> [] -> select (recs ++ [TTemplate lnm v ix]) = Some v.
Proof.
  intros Hv Hne. destruct recs as [|x rest]; [congruence|]. unfold select. cbn [app select_from].
  rewrite (select_from_last rest lnm v ix Hv). reflexivity.
Qed.

(* ... but not when it is the only record: the scan stops before index 0 *)
Theorem innermost_template_frame_reported_refuted :
  exists lnm v ix, v <> 0 /\ select [TTemplate lnm v ix] = None.
Proof. exists 5, 3, (Some 2). split; [discriminate|reflexivity]. Qed.
