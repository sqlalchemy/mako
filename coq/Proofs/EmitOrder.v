(* Proofs/EmitOrder.v -- the sequence of hoisted lines is a function of the sets of names (PYTHONHASHSEED clause of C08) *)
From Coq Require Import Permutation.
From MakoV Require Import Lib.Str Model.Paths8.
Open Scope N_scope.

(* the lexicographic order, read one character at a time *)
Lemma str_leb_cons x a y b : str_leb (x :: a) (y :: b) = true <-> x < y \/ x = y /\ str_leb a b = true.
Proof.
  cbn [str_leb]. destruct (N.ltb_spec x y) as [L|G]; [split; auto|]. destruct (N.ltb_spec y x) as [L|G']; [split; [discriminate|lia]|].
  rewrite (N.le_antisymm _ _ G' G). split; [auto|intros [L|[_ H]]; [elim (N.lt_irrefl _ L)|exact H]].
Qed.

Lemma str_leb_total a : forall b, str_leb a b = true \/ str_leb b a = true.
Proof.
  induction a as [|x a IH]; intros b; [left; reflexivity|].
  destruct b as [|y b]; [right; reflexivity|]. cbn [str_leb].
  destruct (x <? y) eqn:E1; [left; reflexivity|]. destruct (y <? x) eqn:E2; [right; reflexivity|].
  apply IH.
Qed.

Lemma str_leb_antisym a : forall b, str_leb a b = true -> str_leb b a = true -> a = b.
Proof.
  induction a as [|x a IH]; intros [|y b]; try reflexivity; try discriminate.
  intros [H1|[-> H1]]%str_leb_cons H2%str_leb_cons; [lia|]. destruct H2 as [H2|[_ H2]]; [lia|]. f_equal. exact (IH b H1 H2).
Qed.

Lemma str_leb_trans a : forall b c, str_leb a b = true -> str_leb b c = true -> str_leb a c = true.
Proof.
  induction a as [|x a IH]; intros [|y b] [|z c]; try reflexivity; try discriminate.
  intros [H1|[-> H1]]%str_leb_cons [H2|[-> H2]]%str_leb_cons; apply str_leb_cons;
    [left; exact (N.lt_trans _ _ _ H1 H2)|left; assumption..|right; split; [reflexivity|exact (IH b c H1 H2)]].
Qed.

(* inserting two strings gives the same list in either order, sorted or not *)
Lemma insert_comm_le x y : str_leb x y = true -> forall l, insert_s x (insert_s y l) = insert_s y (insert_s x l).
Proof.
  intros Hxy. destruct (str_leb y x) eqn:Hyx; [rewrite (str_leb_antisym x y Hxy Hyx); reflexivity|].
  induction l as [|z r IH]; cbn [insert_s].
  - rewrite Hxy, Hyx. reflexivity.
  - destruct (str_leb y z) eqn:Hyz; cbn [insert_s].
    + (* both stop in front of z, x first *)
      rewrite Hxy, (str_leb_trans x y z Hxy Hyz). cbn [insert_s]. rewrite Hyx, Hyz. reflexivity.
    + (* y passes z; x stops in front of z or passes it too *)
      destruct (str_leb x z) eqn:Hxz; cbn [insert_s]; rewrite ?Hyx, Hyz; [reflexivity|]. rewrite IH. reflexivity.
Qed.

Lemma insert_comm x y l : insert_s x (insert_s y l) = insert_s y (insert_s x l).
Proof. destruct (str_leb_total x y) as [H|H]; [|symmetry]; apply insert_comm_le; exact H. Qed.

(* folding an operation whose applications commute does not see the order of the list *)
Lemma fold_right_perm {A B} (f : A -> B -> B) (b : B) :
  (forall x y c, f x (f y c) = f y (f x c)) ->
  forall l l', Permutation l l' -> fold_right f b l = fold_right f b l'.
Proof.
  intros Hf. induction 1 as [|x l l' _ IH|x y l|l l' l'' _ IH1 _ IH2]; cbn [fold_right].
  - reflexivity.
  - rewrite IH. reflexivity.
  - apply Hf.
  - rewrite IH1. exact IH2.
Qed.

Theorem sort_of_a_set l l' : Permutation l l' -> sort_s l = sort_s l'.
Proof. apply fold_right_perm. exact insert_comm. Qed.

(* the PYTHONHASHSEED clause for the generated text: the sequence of hoisted lines is a function of the SETS of names and of
   defs, whatever order a set happens to be iterated in *)
Theorem emitted_independent_of_set_order names names' defs defs' :
  Permutation names names' -> Permutation defs defs' -> emitted names defs = emitted names' defs'.
Proof. intros Pn Pd. unfold emitted. rewrite (sort_of_a_set _ _ Pn), (sort_of_a_set _ _ Pd). reflexivity. Qed.

Theorem first_missing_independent_of_set_order have names names' defs defs' :
  Permutation names names' -> Permutation defs defs' -> first_missing have names defs = first_missing have names' defs'.
Proof. intros Pn Pd. unfold first_missing. rewrite (emitted_independent_of_set_order _ _ _ _ Pn Pd). reflexivity. Qed.
