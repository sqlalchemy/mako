(* Proofs/LexerEscapes.v -- the documented escapes of C01 as equations about [lex]:
   directive-free text is one Text node holding the text; a line-leading double percent yields
   one percent; a backslash before a newline removes that newline; a double-hash line, a doc
   section vanish with their terminators; the body of a text section is emitted verbatim.
   Each construct is one turn of the lexer's loop; a template is a chain of turns that ends in
   directive-free text. *)
From MakoV Require Import Lib.Str Gen.Unicode Gen.LexerOrder Gen.Parsetree Model.Lexer Proofs.LexerProofs.
Open Scope N_scope.

(* a character that starts no directive and no escape *)
Definition plainc (c : N) : bool :=
  negb ((c =? cLT) || (c =? cDOLLAR) || (c =? cPCT) || (c =? cHASH) || (c =? cBSLASH)).
Definition plain (s : str) : bool := forallb plainc s.

(* what the events of [lex s] emit *)
Definition output (s : str) : str := flat_map emit (fst (lex s)).

Lemma plain_cons c r : plain (c :: r) = true <-> plainc c = true /\ plain r = true.
Proof. apply andb_true_iff. Qed.

Lemma plain_app a b : plain (a ++ b) = plain a && plain b.
Proof. apply forallb_app. Qed.

Lemma plainc_neq c x : plainc c = true -> plainc x = false -> (c =? x) = false.
Proof. intros Hc Hx. destruct (N.eqb_spec c x) as [->|]; [congruence|reflexivity]. Qed.

(* Which matchers can fire: five of them are keyed on the first character of the input, the two for
   line starts on what follows the white space there; each kind has its test on the remaining input. *)

(* no expression, tag, block or section opens here *)
Definition unopened (s : str) : bool :=
  match s with c :: _ => negb ((c =? cDOLLAR) || (c =? cLT)) | [] => true end.

Lemma unopened_plainc c r : plainc c = true -> unopened (c :: r) = true.
Proof.
  intros Hc. cbn [unopened]. rewrite (plainc_neq c cDOLLAR Hc eq_refl), (plainc_neq c cLT Hc eq_refl). reflexivity.
Qed.

Lemma unopened_plain_app a w : plain a = true -> unopened w = true -> unopened (a ++ w) = true.
Proof.
  destruct a as [|c a]; intros Ha Hw; [exact Hw|]. apply plain_cons in Ha as [Hc _]. apply unopened_plainc, Hc.
Qed.

Lemma no_prefix x lit s : unopened s = true -> x = cDOLLAR \/ x = cLT -> strip_prefix (x :: lit) s = None.
Proof.
  destruct s as [|c r]; [reflexivity|]. cbn [unopened strip_prefix]. intros H Hx.
  apply negb_true_iff, orb_false_elim in H as [H1 H2].
  destruct Hx as [-> | ->]; rewrite N.eqb_sym; [rewrite H1|rewrite H2]; reflexivity.
Qed.

Lemma cascade_unopened st : unopened (c_rest (cur st)) = true ->
  cascade matcher_order st =
  match m_control_line st with NoMatch => match m_percent st with NoMatch => m_text st | x => x end | x => x end.
Proof.
  intros H.
  assert (He : m_expression st = NoMatch) by (unfold m_expression; rewrite (no_prefix cDOLLAR) by auto; reflexivity).
  assert (Hc : m_comment st = NoMatch).
  { unfold m_comment, scan_doc. change (s2l "<%doc>") with (cLT :: s2l "%doc>"). rewrite (no_prefix cLT) by auto. reflexivity. }
  assert (Hs : m_tag_start st = NoMatch) by (unfold m_tag_start, scan_tag_start; rewrite (no_prefix cLT) by auto; reflexivity).
  assert (Hn : m_tag_end st = NoMatch) by (unfold m_tag_end, do_tag_end, scan_tag_end; rewrite (no_prefix cLT) by auto; reflexivity).
  assert (Hb : m_python_block st = NoMatch) by (unfold m_python_block; rewrite (no_prefix cLT) by auto; reflexivity).
  unfold matcher_order. cbn [cascade run_matcher]. rewrite He, Hc, Hs, Hn, Hb.
  destruct (m_control_line st); try reflexivity. destruct (m_percent st); try reflexivity. destruct (m_text st); reflexivity.
Qed.

(* after white space the input goes on with something other than a percent sign or a hash, or ends:
   no control line, no comment line and no doubled percent sign begins here *)
Fixpoint text_ahead (s : str) : bool :=
  match s with
  | [] => true
  | c :: r => if is_space c then text_ahead r else negb ((c =? cPCT) || (c =? cHASH))
  end.

Lemma text_ahead_plainc c r : is_space c = false -> plainc c = true -> text_ahead (c :: r) = true.
Proof.
  intros Hs Hc. cbn [text_ahead]. rewrite Hs, (plainc_neq c cPCT Hc eq_refl), (plainc_neq c cHASH Hc eq_refl). reflexivity.
Qed.

Lemma text_ahead_plain_app a w : plain a = true -> text_ahead w = true -> text_ahead (a ++ w) = true.
Proof.
  induction a as [|c a IH]; intros Ha Hw; [exact Hw|]. apply plain_cons in Ha as [Hc Ha].
  destruct (is_space c) eqn:Hs; [|apply text_ahead_plainc; assumption].
  cbn [app text_ahead]. rewrite Hs. exact (IH Ha Hw).
Qed.

Lemma blank_is_space c : is_blank c = true -> is_space c = true.
Proof.
  unfold is_blank. intros H. apply orb_prop in H as [H|H]; apply N.eqb_eq in H; subst c; vm_compute; reflexivity.
Qed.

Lemma space_not_pct_hash c : is_space c = true -> (c =? cPCT) || (c =? cHASH) = false.
Proof.
  intros H. destruct (N.eqb_spec c cPCT) as [->|_]; [rewrite space_not_pct in H; discriminate H|].
  destruct (N.eqb_spec c cHASH) as [->|_]; [vm_compute in H; discriminate H|reflexivity].
Qed.

(* skipping white space of any class ends where [text_ahead] says *)
Lemma span_text_ahead (p : N -> bool) : (forall c, p c = true -> is_space c = true) ->
  forall s, text_ahead s = true ->
  match snd (span p s) with c :: _ => (c =? cPCT) || (c =? cHASH) = false | [] => True end.
Proof.
  intros Hp. induction s as [|c r IH]; intros H; [exact I|]. cbn [span text_ahead] in *. destruct (p c) eqn:Ep.
  - rewrite (Hp c Ep) in H. specialize (IH H). destruct (span p r). exact IH.
  - cbn [snd]. destruct (is_space c) eqn:Es; [apply space_not_pct_hash, Es|apply negb_true_iff, H].
Qed.

Lemma scan_control_line_text s : text_ahead s = true -> scan_control_line s = None.
Proof.
  intros H. apply (span_text_ahead is_blank blank_is_space) in H. unfold scan_control_line.
  destruct (span is_blank s) as [ind [|a r1]]; [reflexivity|]. cbn [snd] in H.
  apply orb_false_elim in H as [-> ->]. reflexivity.
Qed.

Lemma scan_percent_text s : text_ahead s = true -> scan_percent s = None.
Proof.
  intros H. apply (span_text_ahead is_space (fun c Hc => Hc)) in H. unfold scan_percent.
  destruct (span is_space s) as [ws [|a r1]]; [reflexivity|]. cbn [snd] in H. apply orb_false_elim in H as [H _].
  cbn [strip_prefix]. rewrite N.eqb_sym, H. reflexivity.
Qed.

Lemma cascade_text st :
  unopened (c_rest (cur st)) = true -> at_bol (cur st) = false \/ text_ahead (c_rest (cur st)) = true ->
  cascade matcher_order st = m_text st.
Proof.
  intros Hu Hl. rewrite (cascade_unopened st Hu). unfold m_control_line, m_percent.
  destruct Hl as [->|Hl]; [reflexivity|]. rewrite (scan_control_line_text _ Hl), (scan_percent_text _ Hl).
  destruct (negb (at_bol (cur st))); reflexivity.
Qed.

(* the line-start test among the stop conditions; it skips blanks where the matchers of the line constructs
   skip white space of any class, hence a test of its own beside [text_ahead] *)
Definition bol_stop (s : str) : bool :=
  let (_, r) := span is_blank s in
  match r with
  | a :: r1 => (a =? cPCT) || ((a =? cHASH) && match r1 with b :: _ => b =? cHASH | [] => false end)
  | [] => false
  end.

Lemma text_stop_alt prev s :
  text_stop_here prev s =
  (match prev with Some p => (p =? LF) && bol_stop s | None => false end)
  || starts_with [cDOLLAR; cLBRACE] s || starts_with [cLT; cPCT] s || starts_with [cLT; cSLASH; cPCT] s.
Proof. reflexivity. Qed.

Lemma bol_stop_plain_app : forall s rest, plain s = true -> bol_stop rest = false -> bol_stop (s ++ rest) = false.
Proof.
  induction s as [|c s IH]; intros rest Hs Hr; [exact Hr|]. apply plain_cons in Hs as [Hc Hs].
  unfold bol_stop. cbn [app span]. destruct (is_blank c) eqn:Eb.
  - specialize (IH rest Hs Hr). unfold bol_stop in IH. destruct (span is_blank (s ++ rest)) as [bl r]. exact IH.
  - rewrite (plainc_neq c cPCT Hc eq_refl), (plainc_neq c cHASH Hc eq_refl). reflexivity.
Qed.

Lemma scan_text_stop prev s : text_stop_here prev s = true -> scan_text prev s = ([], [], s).
Proof. intros H. destruct s; cbn [scan_text]; rewrite H; reflexivity. Qed.

Lemma text_goes_on prev s : bol_stop s = false -> unopened s = true -> text_stop_here prev s = false.
Proof.
  intros Hb Hu. rewrite text_stop_alt, Hb. unfold starts_with. rewrite (no_prefix cDOLLAR), !(no_prefix cLT) by auto.
  destruct prev; [rewrite andb_false_r|]; reflexivity.
Qed.

Lemma scan_text_cons prev c r : plainc c = true -> bol_stop (c :: r) = false ->
  scan_text prev (c :: r) = let '(t, d, rest) := scan_text (Some c) r in (c :: t, d, rest).
Proof.
  intros Hc Hb. cbn [scan_text]. rewrite (text_goes_on prev _ Hb (unopened_plainc c r Hc)), (plainc_neq c cBSLASH Hc eq_refl). reflexivity.
Qed.

Lemma last_char_lf a prev : last_char (a ++ [LF]) prev = Some LF.
Proof. unfold last_char. rewrite rev_unit. reflexivity. Qed.

Lemma last_char_cons c a prev : last_char (c :: a) prev = last_char a (Some c).
Proof. unfold last_char. cbn [rev]. destruct (rev a); reflexivity. Qed.

(* plain text in front of [w], which does not begin with a line construct, is read together with what is read of [w] *)
Lemma scan_text_app : forall a prev w, plain a = true -> bol_stop w = false ->
  scan_text prev (a ++ w) = let '(t, d, r) := scan_text (last_char a prev) w in (a ++ t, d, r).
Proof.
  induction a as [|c a IH]; intros prev w Ha Hw.
  - change (last_char [] prev) with prev. cbn [app]. destruct (scan_text prev w) as [[t d] r]. reflexivity.
  - pose proof (bol_stop_plain_app _ _ Ha Hw) as Hb. apply plain_cons in Ha as [Hc Ha].
    cbn [app] in *. rewrite (scan_text_cons prev c _ Hc Hb), (IH _ _ Ha Hw), last_char_cons.
    destruct (scan_text (last_char a (Some c)) w) as [[t d] r]. reflexivity.
Qed.

Lemma scan_text_plain s prev : plain s = true -> scan_text prev s = (s, [], []).
Proof.
  intros Hs. pose proof (scan_text_app s prev [] Hs eq_refl) as E. rewrite app_nil_r in E. rewrite E. cbn [scan_text].
  destruct (text_stop_here _ []); rewrite app_nil_r; reflexivity.
Qed.

(* ... up to a backslash that is directly followed by a newline *)
Lemma scan_text_cont a prev w nl t : plain a = true -> eat_newline w = Some (nl, t) ->
  scan_text prev (a ++ cBSLASH :: w) = (a, cBSLASH :: nl, t).
Proof.
  intros Ha Hw. rewrite (scan_text_app a prev (cBSLASH :: w) Ha eq_refl). cbn [scan_text].
  rewrite (text_goes_on _ (cBSLASH :: w) eq_refl eq_refl), N.eqb_refl, Hw, app_nil_r. reflexivity.
Qed.

(* ... up to the tag, block or section that follows *)
Lemma scan_text_tag a prev w : plain a = true -> scan_text prev (a ++ cLT :: cPCT :: w) = (a, [], cLT :: cPCT :: w).
Proof.
  intros Ha. rewrite (scan_text_app a prev (cLT :: cPCT :: w) Ha eq_refl), scan_text_stop, app_nil_r; [reflexivity|].
  rewrite text_stop_alt. change (starts_with [cLT; cPCT] (cLT :: cPCT :: w)) with true. rewrite orb_true_r. reflexivity.
Qed.

(* ... up to the end of a line, where the next line stops it *)
Lemma scan_text_line a prev rest : plain a = true -> text_stop_here (Some LF) rest = true ->
  scan_text prev ((a ++ [LF]) ++ rest) = (a ++ [LF], [], rest).
Proof.
  intros Ha Hs. rewrite <- app_assoc, (scan_text_app a prev ([LF] ++ rest) Ha eq_refl). cbn [app].
  rewrite (scan_text_cons _ LF rest eq_refl eq_refl), (scan_text_stop _ _ Hs). reflexivity.
Qed.

(* the loop with the fuel it needs *)
Definition lex_run (st : lstate) : list event * outcome := lex_loop (S (length (c_rest (cur st)))) st.

Lemma lex_run_eq s : lex s = lex_run (lex_start s).
Proof. apply lex_loop_fuel; pose proof (lex_start_length s); lia. Qed.

Lemma lex_run_end st : c_rest (cur st) = [] -> lex_run st = finish st.
Proof. intros E. unfold lex_run. cbn [lex_loop]. rewrite E. reflexivity. Qed.

Lemma lex_run_step st st' : cascade matcher_order st = Continue st' -> lex_run st = lex_run st'.
Proof.
  intros Ec. pose proof (cascade_spec matcher_order st) as Hs. rewrite Ec in Hs. apply pushes_shorter in Hs.
  unfold lex_run at 1. cbn [lex_loop]. rewrite Ec.
  destruct (c_rest (cur st)) as [|x r]; [inversion Hs|]. apply lex_loop_fuel; lia.
Qed.

Definition out (st : lstate) : str := flat_map emit (rev (evs st)).

Lemma out_push st e c' : out (push_ev st e c') = out st ++ emit e.
Proof. apply flat_map_rev_cons. Qed.

(* one turn of the loop, or several in a row: [o] is written, [t] remains to be read, what is open stays open *)
Record turn (st : lstate) (o t : str) (st' : lstate) : Prop := {
  turn_run : lex_run st = lex_run st';
  turn_rest : c_rest (cur st') = t;
  turn_tags : tags st' = tags st;
  turn_ctls : ctls st' = ctls st;
  turn_out : out st' = out st ++ o }.
Arguments turn_rest {st o t st'}.

Lemma turn_push st k src rest :
  cascade matcher_order st = Continue (push_ev st (mk_event (cur st) k src) (advance (cur st) src rest)) ->
  turn st (emit (mk_event (cur st) k src)) rest (push_ev st (mk_event (cur st) k src) (advance (cur st) src rest)).
Proof. intros Ec. split; [apply lex_run_step, Ec|reflexivity|reflexivity|reflexivity|apply out_push]. Qed.

(* from a state with nothing open the lex succeeds, and writes [o] after what it has written *)
Definition writes (st : lstate) (o : str) : Prop :=
  tags st = [] -> ctls st = [] -> flat_map emit (fst (lex_run st)) = out st ++ o /\ snd (lex_run st) = LexOk.

Lemma turn_writes {st o t st'} o' : turn st o t st' -> writes st' o' -> writes st (o ++ o').
Proof.
  intros [Hr _ Ht Hc Ho] W Qt Qc. rewrite Hr, app_assoc, <- Ho. apply W; congruence.
Qed.

Lemma output_writes s o : scan_coding s = None -> writes (lex_init s) o -> output s = o /\ snd (lex s) = LexOk.
Proof.
  intros Hc W. unfold output. rewrite lex_run_eq. unfold lex_start. rewrite Hc. exact (W eq_refl eq_refl).
Qed.

(* no magic comment unless the template begins with a hash *)
Lemma scan_coding_head c r : (c =? cHASH) = false -> scan_coding (c :: r) = None.
Proof. intros H. cbn [scan_coding]. rewrite H. reflexivity. Qed.

(* a turn taken by match_text: the text [t] it reads is written, a backslash-newline [d] after it is not *)
Lemma text_turn st t d rest :
  unopened (c_rest (cur st)) = true -> at_bol (cur st) = false \/ text_ahead (c_rest (cur st)) = true ->
  scan_text (c_prev (cur st)) (c_rest (cur st)) = (t, d, rest) -> t ++ d <> [] ->
  exists st', turn st t rest st' /\ c_prev (cur st') = last_char d (last_char t (c_prev (cur st))).
Proof.
  intros Hu Hl E Hne. pose proof (cascade_text st Hu Hl) as Ec. unfold m_text in Ec. rewrite E in Ec.
  (* three shapes of a match: a dropped newline, text, both; one event for each part.  The equation on c_prev
     holds by computation, [last_char [] p] being [p] *)
  destruct t, d; [destruct (Hne eq_refl)| | |]; eexists; (split; [split; [exact (lex_run_step _ _ Ec)|reflexivity..|]|reflexivity]);
    rewrite ?out_push; cbn [emit mk_event ev_kind]; rewrite ?app_nil_r; reflexivity.
Qed.

Lemma plain_unopened s : plain s = true -> unopened s = true.
Proof. intros H. rewrite <- (app_nil_r s). apply unopened_plain_app; [exact H|reflexivity]. Qed.

Lemma plain_text_ahead s : plain s = true -> text_ahead s = true.
Proof. intros H. rewrite <- (app_nil_r s). apply text_ahead_plain_app; [exact H|reflexivity]. Qed.

Lemma lex_run_plain st x r : c_rest (cur st) = x :: r -> plain (x :: r) = true ->
  lex_run st = finish (push_ev st (mk_event (cur st) (KText (x :: r)) (x :: r)) (advance (cur st) (x :: r) [])).
Proof.
  intros Er Hp. rewrite <- Er in Hp. rewrite <- lex_run_end by reflexivity. apply lex_run_step.
  rewrite cascade_text by auto using plain_unopened, plain_text_ahead.
  unfold m_text. rewrite (scan_text_plain _ _ Hp), Er. reflexivity.
Qed.

Lemma writes_plain st : plain (c_rest (cur st)) = true -> writes st (c_rest (cur st)).
Proof.
  intros Hp Qt Qc. destruct (c_rest (cur st)) as [|x r] eqn:Er.
  - rewrite (lex_run_end st Er). unfold finish. rewrite Qt, Qc, app_nil_r. split; reflexivity.
  - rewrite (lex_run_plain st x r Er Hp). unfold finish. cbn [push_ev tags ctls evs]. rewrite Qt, Qc. cbn [fst snd].
    rewrite flat_map_rev_cons. split; reflexivity.
Qed.

(* the usual end of a chain of turns *)
Lemma turn_plain {st o t st'} : turn st o t st' -> plain t = true -> writes st (o ++ t).
Proof.
  intros T Ht. apply (turn_writes _ T). rewrite <- (turn_rest T) in *. apply writes_plain, Ht.
Qed.

Lemma scan_coding_plain_app a w : plain a = true -> scan_coding w = None -> scan_coding (a ++ w) = None.
Proof.
  destruct a as [|c a]; intros Ha Hw; [exact Hw|]. apply plain_cons in Ha as [Hc _].
  apply scan_coding_head, (plainc_neq c cHASH Hc eq_refl).
Qed.

Lemma scan_coding_plain s : plain s = true -> scan_coding s = None.
Proof. intros Hs. rewrite <- (app_nil_r s). apply scan_coding_plain_app; [exact Hs|reflexivity]. Qed.

Theorem plain_text_one_node s : plain s = true -> s <> [] ->
  lex s = ([{| ev_kind := KText s; ev_src := s; ev_line := 1; ev_pos := 1 |}], LexOk).
Proof.
  intros Hs Hne. destruct s as [|x r]; [congruence|]. rewrite lex_run_eq. unfold lex_start.
  rewrite scan_coding_plain by exact Hs. exact (lex_run_plain (lex_init (x :: r)) x r eq_refl Hs).
Qed.

Theorem plain_text_identity s : plain s = true -> output s = s /\ snd (lex s) = LexOk.
Proof. intros Hs. apply output_writes; [apply scan_coding_plain, Hs|]. apply (writes_plain (lex_init s)), Hs. Qed.

Theorem continuation_removes_newline a w nl t :
  plain a = true -> plain t = true -> eat_newline w = Some (nl, t) ->
  output (a ++ cBSLASH :: w) = a ++ t /\ snd (lex (a ++ cBSLASH :: w)) = LexOk.
Proof.
  intros Ha Ht Hw. apply output_writes; [apply scan_coding_plain_app; [exact Ha|reflexivity]|].
  destruct (text_turn (lex_init (a ++ cBSLASH :: w)) a (cBSLASH :: nl) t) as (st1 & T & _).
  - apply unopened_plain_app; [exact Ha|reflexivity].
  - right. apply text_ahead_plain_app; [exact Ha|reflexivity].
  - apply scan_text_cont; assumption.
  - destruct a; discriminate.
  - exact (turn_plain T Ht).
Qed.

Theorem continuation_lf_crlf a t : plain a = true -> plain t = true ->
  output (a ++ [cBSLASH; LF] ++ t) = a ++ t /\ output (a ++ [cBSLASH; CR; LF] ++ t) = a ++ t.
Proof.
  intros Ha Ht. split.
  - exact (proj1 (continuation_removes_newline a (LF :: t) [LF] t Ha Ht eq_refl)).
  - exact (proj1 (continuation_removes_newline a (CR :: LF :: t) [CR; LF] t Ha Ht eq_refl)).
Qed.

(* a block of text that ends a line, in front of a construct that opens the next *)
Lemma line_turn st a rest :
  c_rest (cur st) = (a ++ [LF]) ++ rest -> plain a = true -> text_stop_here (Some LF) rest = true ->
  at_bol (cur st) = false \/ text_ahead (c_rest (cur st)) = true ->
  exists st', turn st (a ++ [LF]) rest st' /\ at_bol (cur st') = true.
Proof.
  intros Er Ha Hs Hl. destruct (text_turn st (a ++ [LF]) [] rest) as (st' & T & Hp).
  - rewrite Er, <- app_assoc. apply unopened_plain_app; [exact Ha|reflexivity].
  - exact Hl.
  - rewrite Er. apply scan_text_line; assumption.
  - destruct a; discriminate.
  - exists st'. split; [exact T|]. unfold at_bol. rewrite Hp, last_char_lf. reflexivity.
Qed.

(* a template whose first line is such a block and does not begin with white space ([text_ahead] would do;
   the statements of C01 carry the simpler condition) *)
Lemma first_line_writes x a rest o :
  plain (x :: a) = true -> is_space x = false -> text_stop_here (Some LF) rest = true ->
  (forall st, c_rest (cur st) = rest -> at_bol (cur st) = true -> writes st o) ->
  let s := (x :: a ++ [LF]) ++ rest in output s = (x :: a ++ [LF]) ++ o /\ snd (lex s) = LexOk.
Proof.
  intros Hp Hx Hs W s. pose proof (proj1 (proj1 (plain_cons x a) Hp)) as Hc.
  apply output_writes; [apply scan_coding_head, (plainc_neq x cHASH Hc eq_refl)|].
  destruct (line_turn (lex_init s) (x :: a) rest eq_refl Hp Hs) as (st1 & T1 & Hb1).
  { right. apply text_ahead_plainc; assumption. }
  exact (turn_writes _ T1 (W st1 (turn_rest T1) Hb1)).
Qed.

Lemma span_none p c r : p c = false -> span p (c :: r) = ([], c :: r).
Proof. exact (span_app p [] c r eq_refl). Qed.

Definition no_pct (t : str) : Prop := match t with c :: _ => (c =? cPCT) = false | [] => True end.

(* what follows must not go on with a percent sign: the signs after the first two are all written *)
Lemma percent_turn st t :
  at_bol (cur st) = true -> c_rest (cur st) = cPCT :: cPCT :: t -> no_pct t ->
  exists st', turn st [cPCT] t st' /\ at_bol (cur st') = false.
Proof.
  intros Hb Er Ht.
  assert (Hpc : scan_percent (cPCT :: cPCT :: t) = Some ([], [], [cPCT; cPCT], t)).
  { unfold scan_percent. rewrite (span_none is_space cPCT (cPCT :: t) space_not_pct). cbn [strip_prefix].
    rewrite N.eqb_refl. destruct t as [|c t']; [reflexivity|]. rewrite (span_none _ c t' Ht). reflexivity. }
  eexists. split; [apply (turn_push st (KText [cPCT]) [cPCT; cPCT] t)|reflexivity].
  rewrite cascade_unopened by (rewrite Er; reflexivity). unfold m_control_line, m_percent. rewrite Hb, Er, Hpc. reflexivity.
Qed.

Lemma plain_no_pct t : plain t = true -> no_pct t.
Proof. destruct t as [|c t]; [exact (fun _ => I)|]. intros H. apply plain_cons in H as [Hc _]. exact (plainc_neq c cPCT Hc eq_refl). Qed.

Theorem percent_escape_after_line x a t :
  plain (x :: a) = true -> is_space x = false -> plain t = true ->
  let s := (x :: a ++ [LF]) ++ cPCT :: cPCT :: t in
  output s = (x :: a ++ [LF]) ++ cPCT :: t /\ snd (lex s) = LexOk.
Proof.
  intros Hp Hx Ht. apply (first_line_writes x a (cPCT :: cPCT :: t) _ Hp Hx eq_refl). intros st1 Er Hb1.
  destruct (percent_turn st1 t Hb1 Er (plain_no_pct t Ht)) as (st2 & T2 & _). exact (turn_plain T2 Ht).
Qed.

Theorem percent_escape_at_start t :
  plain t = true -> output (cPCT :: cPCT :: t) = cPCT :: t /\ snd (lex (cPCT :: cPCT :: t)) = LexOk.
Proof.
  intros Ht. apply output_writes; [reflexivity|].
  destruct (percent_turn (lex_init (cPCT :: cPCT :: t)) t eq_refl eq_refl (plain_no_pct t Ht)) as (st2 & T2 & _).
  exact (turn_plain T2 Ht).
Qed.

Definition linetext (s : str) : bool := forallb (fun x => negb ((x =? cBSLASH) || (x =? CR) || (x =? LF))) s.

Lemma linetext_app a b : linetext (a ++ b) = linetext a && linetext b.
Proof. apply forallb_app. Qed.

Lemma newline_ends_lf nlw nl t : eat_newline nlw = Some (nl, t) -> exists pre, nl = pre ++ [LF].
Proof. intros H. destruct (eat_newline_inv _ _ _ H) as [[-> | ->] _]; [exists []|exists [CR]]; reflexivity. Qed.

Lemma scan_ctl_items_line : forall c acc lastc nlw nl t,
  linetext c = true -> eat_newline nlw = Some (nl, t) ->
  scan_ctl_items (c ++ nlw) acc lastc O = (acc ++ c, nlw, lastc).
Proof.
  induction c as [|x c IH]; intros acc lastc nlw nl t Hc Hn.
  - rewrite app_nil_r. destruct (eat_newline_inv _ _ _ Hn) as [[-> | ->] ->]; reflexivity.
  - cbn [app scan_ctl_items]. apply forallb_cons in Hc as [Hx Hc].
    apply negb_true_iff, orb_false_elim in Hx as [Hx H3]. apply orb_false_elim in Hx as [H1 H2].
    rewrite H1, H2, H3. cbn [orb]. rewrite (IH (acc ++ [x]) lastc nlw nl t Hc Hn), <- app_assoc. reflexivity.
Qed.

(* the blanks after the operator are blanks of the comment text itself *)
Lemma span_blank_line : forall c nlw nl t, eat_newline nlw = Some (nl, t) ->
  span is_blank (c ++ nlw) = (fst (span is_blank c), snd (span is_blank c) ++ nlw).
Proof.
  induction c as [|x c IH]; intros nlw nl t Hn.
  - destruct (eat_newline_inv _ _ _ Hn) as [[-> | ->] ->]; reflexivity.
  - cbn [app span]. destruct (is_blank x); [|reflexivity].
    rewrite (IH nlw nl t Hn). destruct (span is_blank c). reflexivity.
Qed.

Lemma scan_hash_line c nlw nl t : linetext c = true -> eat_newline nlw = Some (nl, t) ->
  exists lead text, scan_control_line (cHASH :: cHASH :: c ++ nlw) = Some (CtlHash, lead, text, nl, t).
Proof.
  intros Hc Hn. unfold scan_control_line. rewrite (span_none is_blank cHASH _ eq_refl).
  change (cHASH =? cPCT) with false. rewrite N.eqb_refl, (span_blank_line c nlw nl t Hn).
  rewrite <- (span_split is_blank c), linetext_app in Hc. apply andb_prop in Hc as [_ Hc]. destruct (span is_blank c) as [bl c']. cbn [fst snd] in *.
  rewrite (scan_ctl_items_line c' [] None nlw nl t Hc Hn). cbn [app].
  destruct nlw as [|y r]; [discriminate|]. rewrite Hn. eexists. eexists. reflexivity.
Qed.

Lemma hash_turn st c nlw nl t :
  at_bol (cur st) = true -> c_rest (cur st) = cHASH :: cHASH :: c ++ nlw -> linetext c = true -> eat_newline nlw = Some (nl, t) ->
  exists st', turn st [] t st' /\ at_bol (cur st') = true.
Proof.
  intros Hb Er Hc Hn. destruct (scan_hash_line c nlw nl t Hc Hn) as (lead & text & Hscl).
  destruct (newline_ends_lf nlw nl t Hn) as (pre & ->).
  eexists. split; [apply (turn_push st (KComment text) (lead ++ text ++ pre ++ [LF]) t)|].
  - rewrite cascade_unopened by (rewrite Er; reflexivity). unfold m_control_line. rewrite Hb, Er, Hscl. reflexivity.
  - unfold at_bol. cbn [push_ev cur advance c_prev]. rewrite !app_assoc, last_char_lf. reflexivity.
Qed.

Theorem hash_comment_vanishes x a c nlw nl t :
  plain (x :: a) = true -> is_space x = false -> linetext c = true -> eat_newline nlw = Some (nl, t) -> plain t = true ->
  let s := (x :: a ++ [LF]) ++ cHASH :: cHASH :: c ++ nlw in
  output s = (x :: a ++ [LF]) ++ t /\ snd (lex s) = LexOk.
Proof.
  intros Hp Hx Hc Hn Ht. apply (first_line_writes x a (cHASH :: cHASH :: c ++ nlw) _ Hp Hx eq_refl). intros st1 Er Hb1.
  destruct (hash_turn st1 c nlw nl t Hb1 Er Hc Hn) as (st2 & T2 & _). exact (turn_plain T2 Ht).
Qed.

Definition nolt (s : str) : bool := forallb (fun x => negb (x =? cLT)) s.

Lemma find_lit_nolt lit' : forall body rest, nolt body = true ->
  find_lit (cLT :: lit') (body ++ (cLT :: lit') ++ rest) = Some (body, (cLT :: lit') ++ rest).
Proof.
  induction body as [|c body IH]; intros rest Hb.
  - cbn [app find_lit]. unfold starts_with. cbn [strip_prefix]. rewrite N.eqb_refl, strip_prefix_app. reflexivity.
  - apply forallb_cons in Hb as [Hc Hb]. apply negb_true_iff in Hc.
    change ((c :: body) ++ (cLT :: lit') ++ rest) with (c :: (body ++ (cLT :: lit') ++ rest)).
    cbn [find_lit]. unfold starts_with at 1. cbn [strip_prefix]. rewrite N.eqb_sym, Hc, (IH rest Hb). reflexivity.
Qed.

(* the matchers that come before those for tags and sections do not fire on a "<" *)
Lemma cascade_lt st r : c_rest (cur st) = cLT :: r ->
  cascade matcher_order st = cascade [MComment; MTagStart; MTagEnd; MPythonBlock; MPercent; MText] st.
Proof.
  intros Er. unfold matcher_order. cbn [cascade run_matcher]. unfold m_expression, m_control_line. rewrite Er.
  destruct (negb (at_bol (cur st))); reflexivity.
Qed.

Lemma doc_turn st body t :
  c_rest (cur st) = s2l "<%doc>" ++ body ++ s2l "</%doc>" ++ t -> nolt body = true -> exists st', turn st [] t st'.
Proof.
  intros Er Hb. eexists. apply (turn_push st (KComment body) (s2l "<%doc>" ++ body ++ s2l "</%doc>") t).
  rewrite (cascade_lt st _ Er). cbn [cascade run_matcher]. unfold m_comment, scan_doc. rewrite Er, strip_prefix_app.
  change (s2l "</%doc>") with (cLT :: s2l "/%doc>"). rewrite (find_lit_nolt _ body t Hb), strip_prefix_app. reflexivity.
Qed.

Lemma do_tag_end_text st more t : c_rest (cur st) = s2l "</%text>" ++ t -> tags st = s2l "text" :: more ->
  exists st', do_tag_end st = Continue st' /\ c_rest (cur st') = t /\ tags st' = more /\ ctls st' = ctls st /\ out st' = out st.
Proof.
  (* [reflexivity] evaluates the scanner: it stops at the ">" of the closed prefix, whatever [t] is *)
  intros Er Ht. eexists. split; [unfold do_tag_end; rewrite Er, Ht; reflexivity|].
  cbn [cur advance c_rest tags ctls]. repeat split. unfold out. cbn [evs]. rewrite flat_map_rev_cons. apply app_nil_r.
Qed.

(* match_tag_start on the opening tag of a text section whose closing tag is found: the closing tag is looked for in
   [st2], the state after the opening tag and the body; an empty body makes no Text event *)
Lemma m_tag_start_text st attrs src rest body r2 :
  scan_tag_start (c_rest (cur st)) = Some (s2l "text", attrs, false, src, rest) ->
  find_lit (s2l "</%text>") rest = Some (body, r2) ->
  exists st2, m_tag_start st = match do_tag_end st2 with NoMatch => Continue st2 | other => other end /\
              c_rest (cur st2) = r2 /\ tags st2 = s2l "text" :: tags st /\ ctls st2 = ctls st /\ out st2 = out st ++ body.
Proof.
  intros Es Hf. pose proof (find_lit_eq (s2l "</%text>") rest) as Hr. rewrite Hf in Hr.
  unfold m_tag_start. rewrite Es. change (str_eqb (s2l "text") (s2l "text")) with true. cbv iota. rewrite Hf.
  destruct body as [|b body']; eexists; (split; [reflexivity|]); cbn [cur advance c_rest tags ctls push_ev]; repeat split.
  - symmetry. exact Hr.
  - unfold out. cbn [evs]. rewrite flat_map_rev_cons. reflexivity.
  - rewrite out_push. unfold out. cbn [evs]. rewrite flat_map_rev_cons. cbn [emit mk_event ev_kind]. rewrite app_nil_r. reflexivity.
Qed.

Lemma text_section_turn st body t :
  c_rest (cur st) = s2l "<%text>" ++ body ++ s2l "</%text>" ++ t -> nolt body = true -> exists st', turn st body t st'.
Proof.
  intros Er Hb.
  destruct (m_tag_start_text st [] (s2l "<%text>") (body ++ s2l "</%text>" ++ t) body (s2l "</%text>" ++ t))
    as (st2 & Hm & Hr2 & Ht2 & Hc2 & Ho2).
  { rewrite Er. reflexivity. (* by evaluation again: every scanner involved stops at the ">" of "<%text>" *) }
  { change (s2l "</%text>") with (cLT :: s2l "/%text>"). apply find_lit_nolt, Hb. }
  destruct (do_tag_end_text st2 (tags st) t Hr2 Ht2) as (st' & Hd & Hr & Ht & Hc & Ho).
  exists st'. split; [|exact Hr|exact Ht|congruence|congruence]. apply lex_run_step.
  rewrite (cascade_lt st _ Er). cbn [cascade run_matcher]. unfold m_comment, scan_doc. rewrite Er, Hm, Hd. reflexivity.
Qed.

(* directive-free text [a] (possibly empty) in front of a construct that begins with "<%" *)
Lemma tag_prefix_writes a w o : plain a = true ->
  (forall st, c_rest (cur st) = cLT :: cPCT :: w -> writes st o) ->
  let s := a ++ cLT :: cPCT :: w in output s = a ++ o /\ snd (lex s) = LexOk.
Proof.
  intros Ha W s. apply output_writes; [apply scan_coding_plain_app; [exact Ha|reflexivity]|].
  destruct a as [|x a]; [exact (W (lex_init s) eq_refl)|].
  destruct (text_turn (lex_init s) (x :: a) [] (cLT :: cPCT :: w)) as (st' & T & _).
  - apply plain_cons in Ha as [Hc _]. apply unopened_plainc, Hc.
  - right. apply text_ahead_plain_app; [exact Ha|reflexivity].
  - apply scan_text_tag, Ha.
  - discriminate.
  - exact (turn_writes _ T (W st' (turn_rest T))).
Qed.

Theorem doc_section_vanishes a body t :
  plain a = true -> nolt body = true -> plain t = true ->
  let s := a ++ s2l "<%doc>" ++ body ++ s2l "</%doc>" ++ t in
  output s = a ++ t /\ snd (lex s) = LexOk.
Proof.
  intros Ha Hb Ht. apply (tag_prefix_writes a (s2l "doc>" ++ body ++ s2l "</%doc>" ++ t) t Ha). intros st Er.
  destruct (doc_turn st body t Er Hb) as (st2 & T2). exact (turn_plain T2 Ht).
Qed.

Theorem text_section_verbatim a body t :
  plain a = true -> nolt body = true -> plain t = true ->
  let s := a ++ s2l "<%text>" ++ body ++ s2l "</%text>" ++ t in
  output s = a ++ body ++ t /\ snd (lex s) = LexOk.
Proof.
  intros Ha Hb Ht. apply (tag_prefix_writes a (s2l "text>" ++ body ++ s2l "</%text>" ++ t) (body ++ t) Ha). intros st Er.
  destruct (text_section_turn st body t Er Hb) as (st2 & T2). exact (turn_plain T2 Ht).
Qed.
