(* Proofs/PyExprProofs.v -- C19, the expression printer: on the sublanguage [supported] it never raises.  Shown as
   is_some (print g e) = true, the form in which [supported] states the table lookups, for every fuel g that suffices *)
From MakoV Require Import Lib.Str Gen.AstUtil Model.PyExpr.
Open Scope N_scope.

Definition is_some {A} (o : option A) : bool := match o with Some _ => true | None => false end.

(* the sublanguage the printer has a rule and a symbol for *)
Fixpoint supported (fuel : nat) (e : pexpr) : bool :=
  match fuel with
  | O => false
  | S f =>
      let sup := supported f in
      let osup o := match o with Some x => sup x | None => true end in
      match e with
      | PName _ | PConst _ _ => true
      | PAttr v _ => sup v
      | PCall fn args kw => sup fn && forallb sup args && forallb (fun ka => sup (snd ka)) kw
      | PBin op l r => is_some (assocS op binop_symbols) && sup l && sup r
      | PBool op vs => is_some (assocS op boolop_symbols) && forallb sup vs
      | PCmp l rest => sup l && forallb (fun oe => is_some (assocS (fst oe) cmpop_symbols) && sup (snd oe)) rest
      | PUnary op x => is_some (assocS op unaryop_symbols) && sup x
      | PSub v sl => sup v && sup sl
      | PSlice lo up st => osup lo && osup up && osup st
      | PTuple l | PList l | PSet l => forallb sup l
      | PDict kv => forallb (fun kv0 => match fst kv0 with Some k => sup k | None => true end && sup (snd kv0)) kv
      | PIfExp b t o => sup b && sup t && sup o
      | PLambda _ defaults _ _ _ body => forallb sup defaults && sup body
      | PStarred x => sup x
      | PNamed t v => sup t && sup v
      | POther _ _ => false
      end
  end.

(* the printer is a chain of steps each of which may fail; it succeeds if each does *)
Lemma is_some_bind {A B} (o : option A) (k : A -> option B) :
  is_some o = true -> (forall a, is_some (k a) = true) -> is_some (match o with Some a => k a | None => None end) = true.
Proof. destruct o; [auto|discriminate]. Qed.

Lemma is_some_seq_opt {A B} (g : A -> option B) (ok : A -> bool) (l : list A) :
  (forall a, ok a = true -> is_some (g a) = true) -> forallb ok l = true -> is_some (seq_opt (map g l)) = true.
Proof.
  intros Hg. induction l as [|a r IH]; intros H; [reflexivity|].
  apply forallb_cons in H as [Ha Hr]. cbn [map seq_opt].
  apply is_some_bind; [exact (Hg a Ha)|intros b]. apply is_some_bind; [exact (IH Hr)|reflexivity].
Qed.

(* with at least the fuel that [supported] needed, the printer never raises.  The fuel of the printer is the
   induction variable: the items of a tuple of subscripts are printed with the fuel of the tuple itself, one unit
   more than [supported] spent on them *)
Lemma print_some_above : forall g f e, (f <= g)%nat -> supported f e = true -> is_some (print g e) = true.
Proof.
  induction g as [|g IHg]; intros [|f] e Hle H; try discriminate; [inversion Hle|].
  assert (IH : forall e, supported f e = true -> is_some (print g e) = true) by (intros e0; apply IHg; lia).
  assert (Hl : forall l, forallb (supported f) l = true -> is_some (seq_opt (map (print g) l)) = true).
  { intros l. apply is_some_seq_opt. exact IH. }
  destruct e; cbn [supported] in H; cbn [print];
    (* names, constants, operators, lists, sets, conditionals, lambdas, starred and named expressions: a chain of
       table lookups and prints of operands that ends in Some; H, split at every &&, and IH give each link *)
    try solve [repeat (apply andb_true_iff in H as [H ?]); repeat (apply is_some_bind; [auto|intros ?]); reflexivity].
  - (* attribute: the text depends on whether the value is a number *)
    apply is_some_bind; [auto|intros sv]. destruct e; try reflexivity. destruct kind as [|[?|?|]]; reflexivity.
  - (* call *)
    apply andb_true_iff in H as [[Hf Ha]%andb_true_iff Hk].
    apply is_some_bind; [auto|intros sf]. apply is_some_bind; [auto|intros sa]. apply is_some_bind; [|reflexivity].
    eapply is_some_seq_opt; [|exact Hk]. intros [k v] Hkv. cbn [fst snd] in *.
    destruct k; (apply is_some_bind; [auto|reflexivity]).
  - (* comparison *)
    apply andb_true_iff in H as [He Hrest]. apply is_some_bind; [auto|intros sl]. apply is_some_bind; [|reflexivity].
    eapply is_some_seq_opt; [|exact Hrest]. intros [o v] Hov. cbn [fst snd] in *. apply andb_true_iff in Hov as [Hk1 Hk2].
    apply is_some_bind; [exact Hk1|intros sym]. apply is_some_bind; [auto|reflexivity].
  - (* subscript *)
    apply andb_true_iff in H as [H1 H2].
    apply is_some_bind; [auto|intros sv]. destruct e2; try (apply is_some_bind; [auto|reflexivity]).
    destruct l as [|x r]; [apply is_some_bind; [auto|reflexivity]|].
    (* a tuple of subscripts: its items are printed one by one; H2 computes to forallb (supported f') (x :: r) = true *)
    destruct f as [|f']; [discriminate H2|].
    apply is_some_bind; [|intros [|one [|two more]]; reflexivity].
    apply is_some_seq_opt with (ok := supported f'); [intros a; apply IHg; lia|exact H2].
  - (* slice *)
    assert (Ho : forall o, match o with Some x => supported f x | None => true end = true ->
                           is_some (match o with Some y => print g y | None => Some [] end) = true).
    { intros [x|] Hx; [apply IH; exact Hx|reflexivity]. }
    apply andb_true_iff in H as [[Hlo Hup]%andb_true_iff Hst].
    apply is_some_bind; [auto|intros a]. apply is_some_bind; [auto|intros b].
    destruct st as [s0|]; [|reflexivity]. destruct s0; try (apply is_some_bind; [auto|reflexivity]).
    destruct (str_eqb s (s2l "None")); reflexivity.
  - (* tuple *)
    apply is_some_bind; [auto|intros [|x [|y r]]; reflexivity].
  - (* dict *)
    apply is_some_bind; [|reflexivity].
    eapply is_some_seq_opt; [|exact H]. intros [k v] Hkv. cbn [fst snd] in *. apply andb_true_iff in Hkv as [Hk1 Hk2].
    destruct k as [k|]; [apply is_some_bind; [auto|intros sk]|]; (apply is_some_bind; [auto|reflexivity]).
  - discriminate.
Qed.

Theorem print_total_on_supported : forall f e, supported f e = true -> exists s, print f e = Some s.
Proof.
  intros f e H. pose proof (print_some_above f f e (le_n f) H) as P.
  destruct (print f e) as [s|]; [exists s; reflexivity|discriminate].
Qed.

(* what remains false of the printer (known finding C19-F1): a lambda is written without parentheses
   (test_ast.test_expr_generate pins this text), so as the left operand of an operator it swallows what follows: the
   printed text below is, for Python, a lambda whose body is the sum *)
Example lambda_operand_is_not_parenthesised :
  print_expr (PBin (s2l "Add") (PLambda [] [] None [] None (PName (s2l "a"))) (PName (s2l "b"))) = Some (s2l "(lambda : a + b)").
Proof. vm_compute. reflexivity. Qed.

(* the repaired defects of the printer (fix commits 2b982e4 to 224ff9a, and 2be1737): the ** operator, conditional
   expressions, double-star mappings, keyword-only parameters, numbers with attributes, infinite floats and tuples of
   subscripts *)
Example repaired_printer_cases :
  print_expr (PBin (s2l "Pow") (PName (s2l "a")) (PIfExp (PName (s2l "b")) (PName (s2l "c")) (PName (s2l "d")))) = Some (s2l "(a ** (b if c else d))") /\
  print_expr (PCall (PName (s2l "f")) [] [(None, PName (s2l "d"))]) = Some (s2l "f(**d)") /\
  print_expr (PDict [(None, PName (s2l "d"))]) = Some (s2l "{**d}") /\
  print_expr (PLambda [s2l "x"] [] None [s2l "k"] None (PName (s2l "k"))) = Some (s2l "lambda x, *, k: k") /\
  print_expr (PAttr (PConst (s2l "1") 1) (s2l "real")) = Some (s2l "(1).real") /\
  print_expr (PConst (s2l "inf") 1) = Some (s2l "1e309") /\ print_expr (PConst (s2l "'inf'") 0) = Some (s2l "'inf'") /\
  print_expr (PSub (PName (s2l "x")) (PTuple [PSlice (Some (PName (s2l "a"))) None None; PName (s2l "b")])) = Some (s2l "x[a:, b]").
Proof. vm_compute. repeat split. Qed.
