(* Proofs/ExtractProofs.v -- C20: the extractor's traversal through its step equation (ex_nodes_cons) and
   the line arithmetic of process; which constructs it visits; the translator-comment window on the
   two-node prefixes that open, continue or close it *)
From MakoV Require Import Lib.Str Model.Extract.
Open Scope N_scope.

Scheme node_mut := Induction for node Sort Prop
  with nodes_mut := Induction for nodes Sort Prop.
Combined Scheme node_nodes_ind from node_mut, nodes_mut.

Fixpoint lines_ok (l : nodes) : Prop :=
  match l with NNil => True | NCons n r => lines_ok_node n /\ lines_ok r end
with lines_ok_node (n : node) : Prop :=
  match n with
  | NCodeNode _ line _ => 1 <= line
  | NTagCode line _ kids => 1 <= line /\ lines_ok kids
  | NTagOther kids => True
  | _ => True
  end.

Definition strip_comments (o : out) : N * N := (fst (fst o), snd (fst o)).

Lemma ex_nodes_cons tags n r s :
  ex_nodes tags (NCons n r) s = fst (ex_node tags n s) ++ ex_nodes tags r (snd (ex_node tags n s)).
Proof. cbn [ex_nodes]. destruct (ex_node tags n s). reflexivity. Qed.

(* the kind of a code node makes no difference to what is reported: process does not read intc *)
Lemma ex_node_code tags k line c s : ex_node tags (NCodeNode k line c) s = process line c s.
Proof. destruct k; reflexivity. Qed.

Lemma process_lines line c s : 1 <= line ->
  map strip_comments (fst (process line c s)) = reported (line, c).
Proof.
  intros H. unfold process, reported. cbn [fst snd]. rewrite map_map. apply map_ext. intros [k m].
  unfold strip_comments. cbn [fst snd]. f_equal. lia.
Qed.

Lemma extract_lines_mut tags :
  (forall n, lines_ok_node n -> forall s, map strip_comments (fst (ex_node tags n s)) = flat_map reported (visited_node n)) /\
  (forall l, lines_ok l -> forall s, map strip_comments (ex_nodes tags l s) = flat_map reported (visited l)).
Proof.
  apply node_nodes_ind.
  - intros content _ s. cbn [ex_node visited_node flat_map]. destruct (intc s && is_blank_text content); reflexivity.
  - intros line text _ s. cbn [ex_node visited_node flat_map]. destruct (intc s); [reflexivity|].
    destruct (filter _ tags); reflexivity.
  - intros k line c H s. rewrite ex_node_code. cbn [visited_node flat_map]. rewrite app_nil_r. apply process_lines. exact H.
  - intros _ s. reflexivity.
  - intros line c kids IH [H1 H2] s. pose proof (process_lines line c s H1) as P. cbn [ex_node visited_node flat_map].
    destruct (process line c s) as [o s1]. cbn [fst] in *. rewrite map_app, P, (IH H2 est0). reflexivity.
  - intros kids _ _ s. reflexivity.
  - intros _ s. reflexivity.
  - intros n IHn r IHr [H1 H2] s. rewrite ex_nodes_cons. cbn [visited].
    rewrite map_app, flat_map_app, (IHn H1 s), (IHr H2). reflexivity.
Qed.

(* every message is reported at the template line of the call: node line + index of the code
   line the call is on; and the messages are exactly the calls of the visited nodes, in order *)
Theorem reported_line_is_template_line tags l :
  lines_ok l -> map strip_comments (extract tags l) = flat_map reported (visited l).
Proof. intros H. apply (proj2 (extract_lines_mut tags)). exact H. Qed.

Lemma visited_all_mut :
  (forall n, no_hidden_code_node n = true -> visited_node n = all_codes_node n) /\
  (forall l, no_hidden_code l = true -> visited l = all_codes l).
Proof.
  apply node_nodes_ind; cbn [visited_node all_codes_node visited all_codes no_hidden_code_node no_hidden_code]; try reflexivity.
  - intros line c kids IH H. rewrite (IH H). reflexivity.
  - intros kids _ H. destruct (all_codes kids); [reflexivity|discriminate].
  - intros n IHn r IHr H. apply andb_true_iff in H as [H1 H2]. rewrite (IHn H1), (IHr H2). reflexivity.
Qed.

(* the traversal hands over every Python-bearing construct exactly once, in document order,
   provided none sits below a tag it does not descend into *)
Theorem every_construct_visited_once_partial l : no_hidden_code l = true -> visited l = all_codes l.
Proof. apply (proj2 visited_all_mut). Qed.

(* ... but not in general: a def written inside <%namespace> is never handed to the extractor
   (known finding C20-F1) *)
Theorem every_construct_visited_once_refuted :
  exists l, visited l <> all_codes l.
Proof.
  exists (NCons (NTagOther (NCons (NTagCode 2 [(0, 7)] NNil) NNil)) NNil). cbn. discriminate.
Qed.

Fixpoint no_code (l : nodes) : bool :=
  match l with NNil => true | NCons n r => no_code_node n && no_code r end
with no_code_node (n : node) : bool :=
  match n with NText _ | NComment _ _ | NControlEnd | NTagOther _ => true | _ => false end.

Lemma no_code_visits_nothing l : no_code l = true -> lines_ok l /\ visited l = [].
Proof.
  induction l as [|n r IH]; intros H; [split; reflexivity|]. cbn [no_code] in H. apply andb_true_iff in H as [Hn Hr].
  destruct (IH Hr) as [Hok Hv]. destruct n; try discriminate; cbn [lines_ok lines_ok_node visited visited_node app]; auto.
Qed.

(* nothing comes from plain text, comments and skipped tags *)
Theorem nothing_from_text_doc_comment tags : forall l s, no_code l = true -> ex_nodes tags l s = [].
Proof.
  intros l s H. destruct (no_code_visits_nothing l H) as [Hok Hv]. apply (map_eq_nil strip_comments).
  rewrite (proj2 (extract_lines_mut tags) l Hok s), Hv. reflexivity.
Qed.

Lemma split_lines_single v : forall cur,
  forallb (fun c => negb (c =? LF) && negb (c =? CR)) v = true -> cur ++ v <> [] ->
  split_lines v cur = [cur ++ v].
Proof.
  induction v as [|c r IH]; intros cur H Hne; cbn [split_lines].
  - rewrite app_nil_r in *. destruct cur; [congruence|reflexivity].
  - apply forallb_cons in H as [Hc Hr]. apply andb_true_iff in Hc as [H1 H2].
    apply negb_true_iff in H1, H2. rewrite H1, H2. cbn [andb].
    rewrite (IH (cur ++ [c]) Hr); rewrite <- app_assoc; [reflexivity|exact Hne].
Qed.

Definition single_line (v : str) : Prop := v <> [] /\ forallb (fun c => negb (c =? LF) && negb (c =? CR)) v = true.

(* a tagged single-line comment on the line directly above a construct is attached to all its
   messages; one line further up, it is attached to none *)
Theorem comment_attaches_when_immediately_before tags k lc text line c r t s :
  intc s = false ->
  single_line (strip text) -> filter (fun t0 => starts_with t0 (strip text)) tags = t :: nil -> 1 <= lc ->
  ex_nodes tags (NCons (NComment lc text) (NCons (NCodeNode k line c) r)) s =
    (if lc <? line - 1 then map (fun km => ((line - 1) + ((fst km + 2) - 1), snd km, [])) c
     else map (fun km => ((line - 1) + ((fst km + 2) - 1), snd km, [strip text])) c)
    ++ ex_nodes tags r {| tc := match c with [] => if lc <? line - 1 then [] else [(lc, strip text)] | _ => [] end; intc := false |}.
Proof.
  (* 1 <= lc is not needed: the comparison is with line - 1, and lc itself is never decremented *)
  intros Hs [Hne Hsl] Hf _. rewrite ex_nodes_cons. cbn [ex_node]. rewrite Hs, Hf. cbn [fst snd app].
  rewrite ex_nodes_cons, ex_node_code. unfold split_comment. rewrite (split_lines_single _ [] Hsl Hne).
  unfold process. cbn [fst snd tc last_line number_from]. destruct (lc <? line - 1); destruct c; reflexivity.
Qed.

(* a comment that does not start with a configured tag is attached to nothing *)
Theorem untagged_comment_is_ignored tags lc text rest s :
  intc s = false -> filter (fun t0 => starts_with t0 (strip text)) tags = [] ->
  ex_nodes tags (NCons (NComment lc text) rest) s = ex_nodes tags rest s.
Proof. intros Hi Hf. cbn [ex_nodes ex_node]. rewrite Hi, Hf. reflexivity. Qed.

(* text that is not blank closes a block of translator comments: an ordinary comment after it is
   not a continuation, whatever came before *)
Theorem text_closes_comment_block tags content lc text rest s :
  is_blank_text content = false -> filter (fun t0 => starts_with t0 (strip text)) tags = [] ->
  ex_nodes tags (NCons (NText content) (NCons (NComment lc text) rest)) s = ex_nodes tags rest {| tc := tc s; intc := false |}.
Proof.
  intros Hb Hf. cbn [ex_nodes ex_node]. rewrite Hb, andb_false_r. cbn [intc]. rewrite Hf. reflexivity.
Qed.

(* a construct uses the comment block up: whether or not it had a message, the block is closed
   afterwards *)
Theorem construct_closes_comment_block line c s : intc (snd (process line c s)) = false.
Proof. reflexivity. Qed.
