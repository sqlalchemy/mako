(* Proofs/NamespaceProofs.v -- C07: precedence among inline, file and inherited defs, and among imports, context and builtins;
   what an include passes on, from one closed form of lookup in kwargs_for_include; which URI a tag reaches *)
From MakoV Require Import Lib.Str Model.Paths Model.Namespace.
Open Scope N_scope.

(* inline defs take precedence over the file's defs, those over inherited ones *)
Theorem ns_precedence id inline file_defs exports inh key :
  ns_get (NS id inline file_defs exports inh) key =
    if memN key inline then Some (OInline id)
    else if memN key file_defs then Some (OFile id)
    else match inh with Some p => ns_get p key | None => None end.
Proof. reflexivity. Qed.

Theorem inline_wins id inline file_defs exports inh key :
  In key inline -> ns_get (NS id inline file_defs exports inh) key = Some (OInline id).
Proof. intros H. cbn [ns_get]. apply memN_In in H. rewrite H. reflexivity. Qed.

(* a name brought in by import= is found ahead of a context variable, which is found ahead of a builtin *)
Theorem import_before_context imports context builtins x o :
  assocN x imports = Some o -> resolve_imported imports context builtins x = o.
Proof. intros H. unfold resolve_imported. rewrite H. reflexivity. Qed.

Theorem context_before_builtin imports context builtins x :
  assocN x imports = None -> In x context -> resolve_imported imports context builtins x = OContext.
Proof. intros H Hc. unfold resolve_imported. rewrite H. apply memN_In in Hc. rewrite Hc. reflexivity. Qed.

Theorem undefined_last imports context builtins x :
  assocN x imports = None -> ~ In x context -> ~ In x builtins -> resolve_imported imports context builtins x = OUndefined.
Proof.
  intros H Hc Hb. unfold resolve_imported. rewrite H. apply memN_false in Hc, Hb. rewrite Hc, Hb. reflexivity.
Qed.

Lemma assocN_map_in {A} k (l : list N) (o : A) : In k l -> assocN k (map (fun x => (x, o)) l) = Some o.
Proof.
  induction l as [|x r IH]; intros H; [destruct H|]. cbn [map assocN]. destruct (N.eqb_spec k x) as [->|Hne]; [reflexivity|].
  destruct H as [->|H]; [congruence|apply IH; exact H].
Qed.

(* after import="*" an inline def of the namespace is found, as the inline def *)
Theorem star_brings_inline_and_exports id inline file_defs exports inh d k :
  In k inline ->
  exists d', populate (NS id inline file_defs exports inh) [ImpStar] d = Some d' /\ assocN k d' = Some (OInline id).
Proof.
  intros H. cbn [populate ns_star]. eexists. split; [reflexivity|]. rewrite !assocN_app, (assocN_map_in _ _ _ H). reflexivity.
Qed.

(* include: an argument given in args= wins; otherwise a named parameter of the included body takes
   the context variable of its name; nothing else is passed *)
Lemma kwargs_for_include_assoc {V} params : forall (data kwargs : list (N * V)) k,
  assocN k (kwargs_for_include params data kwargs) =
    match assocN k kwargs with Some v => Some v | None => if memN k params then assocN k data else None end.
Proof.
  induction params as [|p r IH]; intros data kwargs k; cbn [kwargs_for_include memN existsb]; [destruct (assocN k kwargs); reflexivity|].
  destruct (N.eqb_spec k p) as [->|Hne]; cbn [orb].
  - destruct (assocN p kwargs) eqn:Ep; [rewrite IH, Ep; reflexivity|]. destruct (assocN p data) as [v|] eqn:Ed.
    + rewrite IH, assocN_app, Ep. cbn [assocN]. rewrite N.eqb_refl. reflexivity.
    + rewrite IH, Ep, Ed. destruct (memN p r); reflexivity.
  - destruct (assocN p kwargs); [apply IH|]. destruct (assocN p data); [|apply IH].
    rewrite IH, assocN_app. cbn [assocN]. apply N.eqb_neq in Hne. rewrite Hne. destruct (assocN k kwargs); reflexivity.
Qed.

Theorem include_args_first {V} params (data kwargs : list (N * V)) k v :
  assocN k kwargs = Some v -> assocN k (kwargs_for_include params data kwargs) = Some v.
Proof. intros H. rewrite kwargs_for_include_assoc, H. reflexivity. Qed.

Theorem include_then_context {V} params (data kwargs : list (N * V)) k v :
  In k params -> assocN k kwargs = None -> assocN k data = Some v ->
  assocN k (kwargs_for_include params data kwargs) = Some v.
Proof. intros Hin Hk Hd. apply memN_In in Hin. rewrite kwargs_for_include_assoc, Hk, Hin. exact Hd. Qed.

Theorem include_passes_only_parameters {V} params (data kwargs : list (N * V)) k :
  ~ In k params -> assocN k (kwargs_for_include params data kwargs) = assocN k kwargs.
Proof.
  intros Hn. apply memN_false in Hn. rewrite kwargs_for_include_assoc, Hn. destruct (assocN k kwargs); reflexivity.
Qed.

Lemma assocN_filter_keys {V} (keep : N -> bool) (d : list (N * V)) k :
  assocN k (filter (fun kv => keep (fst kv)) d) = if keep k then assocN k d else None.
Proof.
  induction d as [|[k' v] r IH]; [destruct (keep k); reflexivity|]. cbn [filter fst assocN].
  destruct (N.eqb_spec k k') as [<-|Hne].
  - destruct (keep k); [cbn [assocN]; rewrite N.eqb_refl; reflexivity|exact IH].
  - destruct (keep k'); [cbn [assocN]; apply N.eqb_neq in Hne; rewrite Hne|]; exact IH.
Qed.

(* an included template is an independent template: its own self and local, no parent and no next *)
Theorem include_independent {V} (data : list (N * V)) own :
  assocN tok_self (include_context data own) = Some own /\ assocN tok_local (include_context data own) = Some own /\
  assocN tok_parent (include_context data own) = None /\ assocN tok_next (include_context data own) = None.
Proof.
  (* keep is written out: the filter's test is not of the form keep (fst kv) until it is beta-expanded *)
  unfold include_context. repeat split; try reflexivity; cbn [assocN];
    rewrite (assocN_filter_keys (fun k => negb ((k =? tok_self) || (k =? tok_parent) || (k =? tok_next) || (k =? tok_local)))); reflexivity.
Qed.

(* URIs: an absolute one is taken from the lookup root whatever the caller; a relative one is joined
   to the directory of the template it is written in *)
Theorem absolute_from_root uri calling_uri : is_abs uri = true -> adjust_uri uri (Some calling_uri) = uri.
Proof. intros H. unfold adjust_uri. rewrite H. reflexivity. Qed.

Theorem relative_to_calling_uri uri calling_uri : is_abs uri = false ->
  adjust_uri uri (Some calling_uri) = join (dirname calling_uri) uri.
Proof. intros H. unfold adjust_uri. rewrite H. reflexivity. Qed.

Theorem absolute_ignores_caller uri c1 c2 : is_abs uri = true -> reached uri c1 = reached uri c2.
Proof. intros H. unfold reached. rewrite !absolute_from_root by exact H. reflexivity. Qed.
