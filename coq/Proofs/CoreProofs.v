(* Proofs/CoreProofs.v -- every construct acts on the render state as one write to the buffer on top;
   what defs made of text write, by kind *)
From MakoV Require Import Lib.Str Model.Core.

Definition grows (s s' : state) : Prop :=
  callers s' = callers s /\ exists b r x, bufs s = b :: r /\ bufs s' = (b ++ x) :: r.

Lemma write_at_nil l k : write_at l k [] = l.
Proof. revert k. induction l as [|b r IH]; intros [|k]; cbn [write_at]; rewrite ?app_nil_r, ?IH; reflexivity. Qed.

Lemma write_at_write_at l k x y : write_at (write_at l k x) k y = write_at l k (x ++ y).
Proof. revert k. induction l as [|b r IH]; intros [|k]; cbn [write_at]; rewrite ?app_assoc, ?IH; reflexivity. Qed.

Lemma length_write_at l k x : length (write_at l k x) = length l.
Proof. revert k. induction l as [|b r IH]; intros [|k]; cbn [write_at length]; rewrite ?IH; reflexivity. Qed.

Lemma write_nil s w : write s w [] = s.
Proof. destruct s. unfold write. rewrite write_at_nil. reflexivity. Qed.

Lemma write_write s w x y : write (write s w x) w y = write s w (x ++ y).
Proof. unfold write. cbn [bufs callers nextcaller]. rewrite length_write_at, write_at_write_at. reflexivity. Qed.

Lemma writer_of_write s w x : writer_of (write s w x) = writer_of s.
Proof. apply length_write_at. Qed.

Lemma write_top s x :
  write s (writer_of s) x =
    {| bufs := match bufs s with b :: r => (b ++ x) :: r | [] => [] end; callers := callers s; nextcaller := nextcaller s |}.
Proof. unfold write, writer_of. rewrite PeanoNat.Nat.sub_diag. destruct (bufs s); reflexivity. Qed.

Lemma write_cons b r cs nx x :
  write {| bufs := b :: r; callers := cs; nextcaller := nx |} (S (length r)) x = {| bufs := (b ++ x) :: r; callers := cs; nextcaller := nx |}.
Proof. apply (write_top {| bufs := b :: r; callers := cs; nextcaller := nx |}). Qed.

Lemma write_grows s x : bufs s <> [] -> grows s (write s (writer_of s) x).
Proof.
  intros H. rewrite write_top. split; [reflexivity|]. cbn [bufs].
  destruct (bufs s) as [|b r]; [congruence|]. exists b, r, x. split; reflexivity.
Qed.

(* what the finally clauses undo: a buffer of one's own, a frame, the slot a call with content sets *)
Lemma pop_push s x : pop_buffer (write (push_buffer s) (writer_of (push_buffer s)) x) = (x, s).
Proof. destruct s. rewrite write_top. reflexivity. Qed.

Lemma pop_push_frame s : pop_frame (snd (push_frame s)) = s.
Proof. destruct s. reflexivity. Qed.

Lemma set_next_back s c w x : set_next (write (set_next s c) w x) (nextcaller s) = write s w x.
Proof. reflexivity. Qed.

(* a construct that leaves the state alone has written nothing *)
Lemma stays s w (o : outcome) (t : list obs) : exists x o' t', (s, o, t) = (write s w x, o', t').
Proof. exists [], o, t. rewrite write_nil. reflexivity. Qed.

Section Writes.
Variable ex : nat -> option cref -> node -> state -> state * outcome * list obs.

(* a def whose body appends x to the buffer on top when the def starts: a buffered def returns x and leaves the state as
   it was; a filtered one writes x through the filter, and nothing if the body does not end normally; a plain one has
   written x in place *)
Lemma call_def_eq d s w x o t : w = writer_of s ->
  let s2 := if d_buffered d || d_filtered d then push_buffer (snd (push_frame s)) else snd (push_frame s) in
  run_nodes ex (writer_of s2) (nextcaller s) (d_body d) s2 = (write s2 (writer_of s2) x, o, t) ->
  call_def ex d s =
    (write s w (if d_buffered d then [] else if d_filtered d then match o with ONormal => the_filter x | _ => [] end else x),
     match o with OReturn => ONormal | _ => o end, t,
     if d_buffered d then match o with ONormal => if d_filtered d then the_filter x else x | _ => [] end else []).
Proof.
  intros -> s2. unfold call_def. change (push_frame s) with (nextcaller s, snd (push_frame s)). subst s2.
  destruct (d_buffered d); [|destruct (d_filtered d)]; cbn [orb]; cbv beta iota zeta; intros ->.
  - rewrite pop_push, write_nil, pop_push_frame. destruct o; reflexivity.
  - rewrite pop_push, pop_push_frame. destruct o; rewrite ?write_nil; reflexivity.
  - (* no buffer of its own: pop_frame undoes push_frame by computation *) destruct o; reflexivity.
Qed.

Hypothesis ex_writes : forall w me n s, w = writer_of s -> exists x o t, ex w me n s = (write s w x, o, t).

Lemma run_nodes_writes l : forall w me s, w = writer_of s -> exists x o t, run_nodes ex w me l s = (write s w x, o, t).
Proof.
  induction l as [|n r IH]; intros w me s Hw; cbn [run_nodes]; [apply stays|].
  destruct (ex_writes w me n s Hw) as (x & o1 & t1 & ->).
  destruct o1; try (eexists _, _, _; reflexivity).
  destruct (IH w me (write s w x)) as (y & o2 & t2 & ->); [rewrite writer_of_write; exact Hw|].
  rewrite write_write. eexists _, _, _; reflexivity.
Qed.

Lemma call_def_writes d s w : w = writer_of s ->
  exists x o t v, call_def ex d s = (write s w x, o, t, v) /\ (d_buffered d || d_filtered d = true -> o <> ONormal -> x = []).
Proof.
  intros Hw.
  pose (s2 := if d_buffered d || d_filtered d then push_buffer (snd (push_frame s)) else snd (push_frame s)).
  destruct (run_nodes_writes (d_body d) (writer_of s2) (nextcaller s) s2 eq_refl) as (x & o & t & E).
  rewrite (call_def_eq d s w x o t Hw E). eexists _, _, _, _. split; [reflexivity|].
  (* OReturn has become ONormal, so not normal means raised or out of fuel, where nothing is written back *)
  destruct (d_buffered d), (d_filtered d), o; cbn [orb]; congruence.
Qed.
End Writes.

(* for every set of defs, every construct, every state, through the writer of the buffer on top, and every outcome -- normal,
   return, exception, out of fuel: the state afterwards is the state before with some text appended to that buffer *)
Theorem exec_writes defs : forall fuel w me n s, w = writer_of s ->
  exists x o t, exec defs fuel w me n s = (write s w x, o, t).
Proof.
  induction fuel as [|f IH]; intros w me n s Hw; [apply stays|].
  destruct n; cbn [exec]; try apply stays.
  - (* NText *) eexists _, _, _; reflexivity.
  - (* NCall *) destruct (nth_error defs d) as [df|]; [|apply stays].
    destruct (call_def_writes _ IH df s w Hw) as (x & o & t & v & -> & _).
    destruct o; rewrite ?write_write; eexists _, _, _; reflexivity.
  - (* NCapture *) destruct (nth_error defs d) as [df|]; [|apply stays].
    destruct (call_def_writes _ IH df (push_buffer s) _ eq_refl) as (x & o & t & v & -> & _).
    rewrite pop_push. destruct o; try apply stays. eexists _, _, _; reflexivity.
  - (* NCallContent *) destruct (nth_error defs d) as [df|]; [|apply stays].
    destruct (call_def_writes _ IH df (set_next s (Some (CRef body me))) w Hw) as (x & o & t & v & -> & _).
    destruct o; rewrite ?write_write, set_next_back; eexists _, _, _; reflexivity.
  - (* NCallerBody *) destruct me as [[body outer]|]; [|apply stays]. subst w.
    destruct (run_nodes_writes _ IH body _ outer s eq_refl) as (x & o & t & ->).
    destruct o; eexists _, _, _; reflexivity.
  - (* NTry *) destruct (run_nodes_writes _ IH body w me s Hw) as (x & o & t & ->).
    destruct o; try (eexists _, _, _; reflexivity).
    destruct (run_nodes_writes _ IH handler w me (write s w x)) as (y & o2 & t2 & ->); [rewrite writer_of_write; exact Hw|].
    rewrite write_write. eexists _, _, _; reflexivity.
Qed.

(* from any state inside a render function -- also one in which a caller is waiting in nextcaller for a call whose arguments
   are being evaluated (the situation of fix 98e6214) -- and in every outcome: the caller stack is what it was, nextcaller
   is what it was, no buffer was added or lost, and only the buffer on top has grown *)
Theorem render_state_preserved defs fuel w me n s :
  bufs s <> [] -> w = writer_of s ->
  grows s (fst (fst (exec defs fuel w me n s))) /\ nextcaller (fst (fst (exec defs fuel w me n s))) = nextcaller s.
Proof.
  intros Hb Hw. destruct (exec_writes defs fuel w me n s Hw) as (x & o & t & ->). subst w.
  split; [apply write_grows; exact Hb|reflexivity].
Qed.

(* the instance with nextcaller clear, which is the state on entry to a render function *)
Theorem render_state_consistent defs : forall fuel w me n s,
  nextcaller s = None -> bufs s <> [] -> w = writer_of s ->
  grows s (fst (fst (exec defs fuel w me n s))) /\ nextcaller (fst (fst (exec defs fuel w me n s))) = None.
Proof.
  intros fuel w me n s Hn Hb Hw. destruct (render_state_preserved defs fuel w me n s Hb Hw) as [G N].
  split; [exact G|congruence].
Qed.

(* caller, the caller stack and nextcaller after any construct -- a call with content included, however
   it ends -- are what they were *)
Theorem caller_restored defs fuel w me n s :
  nextcaller s = None -> bufs s <> [] -> w = writer_of s ->
  let s' := fst (fst (exec defs fuel w me n s)) in
  callers s' = callers s /\ nextcaller s' = None /\ length (bufs s') = length (bufs s) /\ tl (bufs s') = tl (bufs s).
Proof.
  intros Hn Hb Hw. destruct (render_state_consistent defs fuel w me n s Hn Hb Hw) as [[Hc (b & r & x & E & E')] N].
  cbn zeta. rewrite E, E'. split; [exact Hc|split; [exact N|split; reflexivity]].
Qed.

(* a def with a buffer of its own that does not end normally leaves every buffer exactly as it was:
   the partial content of the abandoned buffer is discarded, nothing leaks below *)
Theorem abandoned_buffer_discarded defs f w me d df s :
  nth_error defs d = Some df -> d_buffered df || d_filtered df = true ->
  nextcaller s = None -> bufs s <> [] -> w = writer_of s ->
  snd (fst (exec defs (S f) w me (NCall d) s)) <> ONormal ->
  bufs (fst (fst (exec defs (S f) w me (NCall d) s))) = bufs s.
Proof.
  intros Hd Hbf _ _ Hw. cbn [exec]. rewrite Hd.
  destruct (call_def_writes _ (exec_writes defs f) df s w Hw) as (x & o & t & v & -> & Hx).
  destruct o; cbn [fst snd]; intros Ho; try congruence; rewrite (Hx Hbf Ho), write_nil; reflexivity.
Qed.

Definition texts (l : list str) : list node := map NText l.

Lemma run_texts defs f me l : forall w s,
  run_nodes (exec defs (S f)) w me (texts l) s = (write s w (concat l), ONormal, []).
Proof.
  induction l as [|t l IH]; intros w s; [cbn; rewrite write_nil; reflexivity|].
  cbn [texts map run_nodes exec]. fold (texts l). rewrite IH, write_write. reflexivity.
Qed.

Lemma call_def_texts defs f l buffered filtered s w : w = writer_of s ->
  call_def (exec defs (S f)) {| d_body := texts l; d_buffered := buffered; d_filtered := filtered |} s =
    (write s w (if buffered then [] else if filtered then the_filter (concat l) else concat l), ONormal, [],
     if buffered then if filtered then the_filter (concat l) else concat l else []).
Proof.
  intros Hw.
  exact (call_def_eq _ {| d_body := texts l; d_buffered := buffered; d_filtered := filtered |} s w (concat l) ONormal [] Hw (run_texts _ _ _ _ _ _)).
Qed.

(* calling a def writes its body at the point of the call; a buffered def returns its content, which
   the expression then writes at the same point; a filtered def passes its whole content once through
   the filter *)
Theorem def_call_writes_in_place defs f me d l buffered filtered b r cs :
  nth_error defs d = Some {| d_body := texts l; d_buffered := buffered; d_filtered := filtered |} ->
  exec defs (S (S f)) (S (length r)) me (NCall d) {| bufs := b :: r; callers := cs; nextcaller := None |} =
    ({| bufs := (b ++ (if filtered then the_filter (concat l) else concat l)) :: r; callers := cs; nextcaller := None |}, ONormal, []).
Proof.
  (* the inner fuel gets a name, so that cbn [exec] unfolds the call and not the body *)
  intros Hd. remember (S f) as g eqn:Eg. cbn [exec]. rewrite Hd. subst g. rewrite (call_def_texts _ _ _ _ _ _ _ eq_refl).
  rewrite write_write, write_cons. destruct buffered, filtered; rewrite ?app_nil_r; reflexivity.
Qed.

(* capture returns what the def would have written and leaves the output as it was; the value is then
   written by the expression it stands in *)
Theorem capture_leaves_output defs f me d l b r cs :
  nth_error defs d = Some {| d_body := texts l; d_buffered := false; d_filtered := false |} ->
  exec defs (S (S f)) (S (length r)) me (NCapture d) {| bufs := b :: r; callers := cs; nextcaller := None |} =
    ({| bufs := (b ++ concat l) :: r; callers := cs; nextcaller := None |}, ONormal, []).
Proof.
  intros Hd. remember (S f) as g eqn:Eg. cbn [exec]. rewrite Hd. subst g. rewrite (call_def_texts _ _ _ _ _ _ _ eq_refl).
  rewrite pop_push, write_cons. reflexivity.
Qed.

Theorem direct_text_stays defs f me t b r cs :
  run_nodes (exec defs (S f)) (S (length r)) me [NText t; NRaise] {| bufs := b :: r; callers := cs; nextcaller := None |} =
    ({| bufs := (b ++ t) :: r; callers := cs; nextcaller := None |}, ORaised, []).
Proof. cbn [run_nodes exec]. rewrite write_cons. reflexivity. Qed.

Lemma exec_text defs f w me t s : exec defs (S f) w me (NText t) s = (write s w t, ONormal, []).
Proof. reflexivity. Qed.

Lemma exec_callerbody_texts defs f w l outer s :
  exec defs (S (S f)) w (Some (CRef (texts l) outer)) NCallerBody s = (write s (writer_of s) (concat l), ONormal, []).
Proof. remember (S f) as g. cbn [exec]. subst g. rewrite run_texts. reflexivity. Qed.

Lemma run_body_twice defs f a z l outer s :
  run_nodes (exec defs (S (S f))) (writer_of s) (Some (CRef (texts l) outer)) [NText a; NCallerBody; NCallerBody; NText z] s =
    (write s (writer_of s) (a ++ concat l ++ concat l ++ z), ONormal, []).
Proof.
  cbn [run_nodes]. rewrite exec_text; cbv beta iota. rewrite exec_callerbody_texts; cbv beta iota.
  rewrite exec_callerbody_texts; cbv beta iota. rewrite exec_text; cbv beta iota.
  rewrite !writer_of_write, !write_write. reflexivity.
Qed.

(* a call with content: the callee writes a, asks for the body twice, writes z; the body is text.  The body's
   text appears twice, between a and z, at the point of the call; afterwards caller is what it was *)
Theorem body_invoked_twice defs f me d a z l b r cs :
  nth_error defs d = Some {| d_body := [NText a; NCallerBody; NCallerBody; NText z]; d_buffered := false; d_filtered := false |} ->
  exec defs (S (S (S f))) (S (length r)) me (NCallContent d (texts l)) {| bufs := b :: r; callers := cs; nextcaller := None |} =
    ({| bufs := (b ++ a ++ concat l ++ concat l ++ z) :: r; callers := cs; nextcaller := None |}, ONormal, []).
Proof.
  intros Hd. remember (S (S f)) as g eqn:Eg. cbn [exec]. rewrite Hd. subst g.
  set (s0 := set_next _ _). set (df := Build_def _ _ _).
  rewrite (call_def_eq _ df s0 _ (a ++ concat l ++ concat l ++ z) ONormal [] eq_refl (run_body_twice _ _ _ _ _ _ _)).
  cbn [d_buffered d_filtered df]. subst s0. rewrite write_nil, set_next_back, write_cons. reflexivity.
Qed.
