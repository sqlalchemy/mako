(* Proofs/Paths8Proofs.v -- C08: the hoisted declarations through a closed form of the lookups they leave
   (run_decls_lookup); the registry by induction over the later registrations *)
From Coq Require Import Permutation.
From MakoV Require Import Lib.Str Gen.Unicode Model.Paths8.
Open Scope N_scope.

Lemma run_decls_lookup {V} (src : N -> V) names : forall env x,
  assocN x (run_decls src names env) = if memN x names then Some (src x) else assocN x env.
Proof.
  induction names as [|n r IH]; intros env x; [reflexivity|].
  unfold run_decls in *. cbn [fold_left]. rewrite IH. change (memN x (n :: r)) with ((x =? n) || memN x r).
  destruct (memN x r); [rewrite orb_true_r; reflexivity|]. rewrite orb_false_r. cbn [assocN].
  destruct (N.eqb_spec x n) as [->|_]; reflexivity.
Qed.

(* the environment depends on the set of hoisted names only *)
Lemma run_decls_same_set {V} (src : N -> V) names names' env :
  (forall x, In x names <-> In x names') ->
  forall x, assocN x (run_decls src names env) = assocN x (run_decls src names' env).
Proof.
  intros H x. rewrite !run_decls_lookup. replace (memN x names') with (memN x names); [reflexivity|].
  apply eq_true_iff_eq. rewrite !memN_In. apply H.
Qed.

(* for every set of hoisted names, every order in which they are emitted binds every name to the same
   value: the render function starts in the same environment whatever PYTHONHASHSEED is *)
Theorem decl_order_irrelevant {V} (src : N -> V) names names' env :
  Permutation names names' -> forall x, assocN x (run_decls src names env) = assocN x (run_decls src names' env).
Proof. intros H. apply run_decls_same_set. intros y. split; apply Permutation_in; [|symmetry]; exact H. Qed.

Lemma answers_register_all l : forall r u,
  (forall u' t', In (u', t') l -> module_id u' <> module_id u) -> answers (register_all r l) u = answers r u.
Proof.
  induction l as [|[u0 t0] rest IH]; intros r u H; [reflexivity|].
  cbn [register_all]. rewrite IH by (intros u' t' Hin; apply (H u' t'); right; exact Hin).
  unfold answers, register. cbn [assocS]. destruct (str_eqb (module_id u) (module_id u0)) eqn:E; [|reflexivity].
  apply str_eqb_eq in E. exfalso. apply (H u0 t0); [left; reflexivity|congruence].
Qed.

(* the registry answers with the template's own text and module as long as no template constructed
   later has the same module identifier *)
Theorem registry_own_source_partial r u t later :
  (forall u' t', In (u', t') later -> module_id u' <> module_id u) ->
  answers (register_all (register r u t) later) u = Some t.
Proof.
  intros H. rewrite answers_register_all by exact H. unfold answers, register. cbn [assocS]. rewrite str_eqb_refl. reflexivity.
Qed.

(* ... but two URIs that differ only in characters outside the word class share an identifier: a lookup
   by module name then answers with the later template's source (what a traceback frame of the earlier
   template is reported with: known finding C12-F3; Template.source itself is repaired, fix 027f356) *)
Theorem registry_own_source_refuted :
  exists u1 u2, u1 <> u2 /\ answers (register_all [] [(u1, 1); (u2, 2)]) u1 = Some 2.
Proof. exists (s2l "/a-b.html"), (s2l "/a_b.html"). split; [discriminate|]. vm_compute. reflexivity. Qed.

Theorem module_id_keeps_word_characters uri : forallb is_word uri = true -> module_id uri = uri.
Proof.
  induction uri as [|c r IH]; intros H; [reflexivity|]. apply forallb_cons in H as [Hc Hr].
  cbn [module_id map]. rewrite Hc. f_equal. apply IH. exact Hr.
Qed.
