(* Proofs/PathsProofs.v -- C09: the loop of normpath is studied on lists of components (norm_step by the kind of
   component, run_rel for a relative path); strings come in through split_on and join_sep. *)
From MakoV Require Import Lib.Str Model.Paths.
Open Scope N_scope.

Lemma str_eqb_neq a b : str_eqb a b = false <-> a <> b.
Proof. rewrite <- str_eqb_eq. destruct (str_eqb a b); split; congruence. Qed.

Lemma split_on_nonempty sep s : split_on sep s <> [].
Proof.
  induction s as [|c r IH]; cbn [split_on]; [discriminate|].
  destruct (c =? sep); [discriminate|]. destruct (split_on sep r); [congruence|discriminate].
Qed.

Lemma split_app_sep sep a b : split_on sep (a ++ sep :: b) = split_on sep a ++ split_on sep b.
Proof.
  induction a as [|c r IH]; cbn [app split_on].
  - rewrite N.eqb_refl. reflexivity.
  - destruct (c =? sep); [rewrite IH; reflexivity|].
    rewrite IH. destruct (split_on sep r) eqn:E; [exfalso; revert E; apply split_on_nonempty|reflexivity].
Qed.

Lemma split_no_sep sep s : Forall (fun c => ~ In sep c) (split_on sep s).
Proof.
  induction s as [|x r IH]; cbn [split_on].
  - constructor; [intros []|constructor].
  - destruct (N.eqb_spec x sep) as [->|Hne].
    + constructor; [intros []|exact IH].
    + destruct (split_on sep r) as [|h t]; [constructor; [|constructor]|].
      * intros [E|[]]. congruence.
      * inversion IH; subst. constructor; [|assumption]. intros [E|Hin]; [congruence|contradiction].
Qed.

Lemma join_sep_head sep x r : exists t, join_sep sep (x :: r) = x ++ t.
Proof. destruct r; cbn [join_sep]; [exists []; rewrite app_nil_r; reflexivity|eexists; reflexivity]. Qed.

Lemma join_sep_nonempty sep l : Forall (fun c => c <> []) l -> l <> [] -> join_sep sep l <> [].
Proof.
  destruct l as [|x r]; [congruence|]. intros H _. inversion H; subst.
  destruct (join_sep_head sep x r) as [t ->]. destruct x; [congruence|discriminate].
Qed.

Lemma run_app a S x y : run_norm a S (x ++ y) = run_norm a (run_norm a S x) y.
Proof. unfold run_norm. apply fold_left_app. Qed.

Lemma run_skip_nil a S : run_norm a S [[]] = S.
Proof. reflexivity. Qed.

Lemma ends_with_slash_split a : ends_with_slash a = true -> exists a', a = a' ++ [SLASH].
Proof.
  unfold ends_with_slash. destruct (rev a) as [|c r] eqn:E; [discriminate|].
  intros H. apply N.eqb_eq in H. subst c. exists (rev r).
  rewrite <- (rev_involutive a), E. reflexivity.
Qed.

Lemma is_abs_join d u : is_abs u = false -> is_abs (join d u) = is_abs d.
Proof.
  intros Hu. unfold join. rewrite Hu. destruct d as [|c d]; [exact Hu|].
  cbn [is_nil orb]. destruct (ends_with_slash (c :: d)); reflexivity.
Qed.

Lemma norm_stack_join d u :
  is_abs u = false ->
  norm_stack (join d u) = run_norm (is_abs d) (norm_stack d) (split_on SLASH u).
Proof.
  intros Hu. unfold norm_stack at 1. rewrite (is_abs_join d u Hu). unfold join. rewrite Hu.
  destruct d as [|c d']; [reflexivity|]. cbn [is_nil orb]. set (d := c :: d').
  destruct (ends_with_slash d) eqn:He.
  - (* a trailing slash of d gives one empty component, which the loop skips *)
    destruct (ends_with_slash_split d He) as [d0 E]. rewrite E.
    rewrite <- app_assoc. cbn [app]. rewrite split_app_sep, run_app.
    unfold norm_stack. rewrite (split_app_sep SLASH d0 []), run_app. reflexivity.
  - rewrite split_app_sep, run_app. reflexivity.
Qed.

(* a relative path is rendered from its stack alone *)
Lemma normpath_rel u : is_abs u = false ->
  normpath u = let p := join_sep SLASH (rev (run_norm false [] (split_on SLASH u))) in if is_nil p then dot else p.
Proof.
  intros Hu. unfold normpath, norm_stack. rewrite Hu. destruct u as [|c r]; [reflexivity|].
  unfold initial_slashes. cbn [is_nil count_leading]. cbn [is_abs] in Hu. rewrite Hu. reflexivity.
Qed.

Lemma clean_agree uri : clean_lookup uri = clean_template uri.
Proof.
  unfold clean_lookup, clean_template. induction (unbackslash uri) as [|x r IH]; [reflexivity|].
  cbn [lstrip_c]. destruct (x =? SLASH); [exact IH|reflexivity].
Qed.

Lemma lstrip_not_abs s : is_abs (lstrip_c SLASH s) = false.
Proof.
  induction s as [|x r IH]; [reflexivity|]. cbn [lstrip_c].
  destruct (x =? SLASH) eqn:E; [exact IH|]. cbn [is_abs]. exact E.
Qed.

Definition plainP (c : str) : Prop := c <> [] /\ c <> dot /\ c <> dotdot /\ ~ In SLASH c.

Lemma is_nil_false (c : str) : is_nil c = false <-> c <> [].
Proof. destruct c; cbn [is_nil]; split; congruence. Qed.

Lemma plain_spec c : plain c = true <-> plainP c.
Proof.
  unfold plain, plainP. split.
  - intros H. apply andb_true_iff in H as [H H4]. apply andb_true_iff in H as [H H3]. apply andb_true_iff in H as [H1 H2].
    apply negb_true_iff in H1, H2, H3, H4.
    repeat split; [apply is_nil_false|apply str_eqb_neq|apply str_eqb_neq|apply memN_false]; assumption.
  - intros (H1 & H2 & H3 & H4). apply is_nil_false in H1. apply str_eqb_neq in H2, H3. apply memN_false in H4.
    rewrite H1, H2, H3, H4. reflexivity.
Qed.

Lemma comp_kind c : ~ In SLASH c -> (c = [] \/ c = dot) \/ c = dotdot \/ plainP c.
Proof.
  intros Hs. destruct c as [|x r]; [auto|].
  destruct (str_eqb (x :: r) dot) eqn:E1; [apply str_eqb_eq in E1; auto|].
  destruct (str_eqb (x :: r) dotdot) eqn:E2; [apply str_eqb_eq in E2; auto|].
  apply str_eqb_neq in E1, E2. right. right. repeat split; [discriminate|assumption..].
Qed.

Lemma norm_step_skip a S c : c = [] \/ c = dot -> norm_step a S c = S.
Proof. intros [-> | ->]; reflexivity. Qed.

Lemma norm_step_plain a S c : plainP c -> norm_step a S c = c :: S.
Proof.
  intros (H1 & H2 & H3 & _). unfold norm_step. apply is_nil_false in H1. apply str_eqb_neq in H2, H3.
  rewrite H1, H2, H3. reflexivity.
Qed.

Lemma norm_step_pop a top S : top <> dotdot -> norm_step a (top :: S) dotdot = S.
Proof.
  intros H. apply str_eqb_neq in H.
  change (norm_step a (top :: S) dotdot) with (if str_eqb top dotdot then dotdot :: top :: S else S).
  rewrite H. reflexivity.
Qed.

(* once ".." is at the bottom of a relative stack it stays there *)
Lemma norm_step_bottom Q c : exists Q', norm_step false (Q ++ [dotdot]) c = Q' ++ [dotdot].
Proof.
  unfold norm_step. destruct (is_nil c || str_eqb c dot); [exists Q; reflexivity|].
  destruct (str_eqb c dotdot); [|exists (c :: Q); reflexivity].
  destruct Q as [|top rest]; [exists [dotdot]; reflexivity|]. cbn [negb app].
  destruct (str_eqb top dotdot); [exists (dotdot :: top :: rest)|exists rest]; reflexivity.
Qed.

(* Either the path never climbs above where it starts: then, on any stack and in either mode, the loop
   only pushes plain names; or its relative normal form begins with "..". *)
Lemma run_rel comps : Forall (fun c => ~ In SLASH c) comps ->
  (exists P, Forall plainP P /\ forall a B, run_norm a B comps = P ++ B) \/
  (exists Q, run_norm false [] comps = Q ++ [dotdot]).
Proof.
  induction comps as [|c comps IH] using rev_ind; intros H.
  - left. exists []. split; [constructor|reflexivity].
  - apply Forall_app in H as [Hcomps Hc]. inversion Hc as [|? ? Hs _]; subst.
    destruct (IH Hcomps) as [(P & HP & Hrun)|(Q & HQ)].
    + destruct (comp_kind c Hs) as [E|[->|Hpl]].
      * left. exists P. split; [exact HP|]. intros a B. rewrite run_app, Hrun. apply norm_step_skip. exact E.
      * destruct P as [|top rest].
        -- right. exists []. rewrite run_app, Hrun. reflexivity.
        -- left. inversion HP as [|? ? (_ & _ & Htop & _) Hrest]; subst. exists rest. split; [exact Hrest|].
           intros a B. rewrite run_app, Hrun. apply norm_step_pop. exact Htop.
      * left. exists (c :: P). split; [constructor; assumption|].
        intros a B. rewrite run_app, Hrun. apply norm_step_plain. exact Hpl.
    + right. rewrite run_app, HQ. apply norm_step_bottom.
Qed.

(* what the constructor's check says about the cleaned URI: its components, pushed on any stack, leave
   plain names P on top of it; u_norm is P rendered *)
Lemma checked_uri uri : template_check uri = true ->
  exists P, Forall plainP P /\
    (forall a B, run_norm a B (split_on SLASH (clean_template uri)) = P ++ B) /\
    u_norm uri = match P with [] => dot | _ => join_sep SLASH (rev P) end.
Proof.
  intros Hck. unfold template_check in Hck. apply negb_true_iff in Hck. unfold u_norm in *.
  assert (Hrel : is_abs (clean_template uri) = false) by (rewrite <- clean_agree; apply lstrip_not_abs).
  rewrite (normpath_rel _ Hrel) in *. cbv zeta in *.
  destruct (run_rel _ (split_no_sep SLASH (clean_template uri))) as [(P & HP & Hrun)|(Q & HQ)].
  - exists P. rewrite (Hrun false []), app_nil_r. split; [exact HP|]. split; [exact Hrun|].
    destruct P as [|top rest]; [reflexivity|].
    (* the rendered path is not empty, since no component is *)
    assert (E : is_nil (join_sep SLASH (rev (top :: rest))) = false); [|rewrite E; reflexivity].
    apply is_nil_false, join_sep_nonempty; [|cbn [rev]; destruct (rev rest); discriminate].
    apply Forall_rev. revert HP. apply Forall_impl. intros c H. apply H.
  - rewrite HQ, rev_app_distr in Hck. cbn [rev app] in Hck.
    destruct (join_sep_head SLASH dotdot (rev Q)) as [t Ht]. rewrite Ht in Hck.
    change (is_nil (dotdot ++ t)) with false in Hck. unfold starts_with in Hck. rewrite strip_prefix_app in Hck. discriminate.
Qed.

Theorem lookup_contained d uri :
  template_check uri = true ->
  exists segs,
    norm_stack (join d (clean_lookup uri)) = segs ++ norm_stack d /\
    is_abs (join d (clean_lookup uri)) = is_abs d /\
    Forall plainP segs.
Proof.
  intros Hck. destruct (checked_uri uri Hck) as (P & HP & Hrun & _). exists P.
  assert (Hrel : is_abs (clean_lookup uri) = false) by apply lstrip_not_abs.
  rewrite (norm_stack_join d _ Hrel), (is_abs_join d _ Hrel), clean_agree.
  split; [apply Hrun|split; [reflexivity|exact HP]].
Qed.

(* a failing check is a leading ".." in what the lookup normalises, because the two cleaners agree *)
Theorem check_fails_iff_escapes uri :
  template_check uri = false ->
  starts_with dotdot (normpath (clean_lookup uri)) = true.
Proof.
  unfold template_check, u_norm. rewrite clean_agree. intros H. apply negb_false_iff in H. exact H.
Qed.

Theorem get_template_contained isfile dirs uri f :
  get_template isfile dirs uri = Found f ->
  exists d segs, In d dirs /\ f = normpath (join d (clean_lookup uri)) /\
    norm_stack (join d (clean_lookup uri)) = segs ++ norm_stack d /\
    is_abs (join d (clean_lookup uri)) = is_abs d /\ Forall plainP segs.
Proof.
  induction dirs as [|d ds IH]; cbn [get_template]; [discriminate|].
  destruct (isfile (normpath (join d (clean_lookup uri)))).
  - destruct (template_check uri) eqn:Hck; [|discriminate].
    intros [= <-]. destruct (lookup_contained d uri Hck) as [segs [H1 [H2 H3]]].
    exists d, segs. repeat split; try assumption. left; reflexivity.
  - intros H. destruct (IH H) as [d' [segs [Hin Hrest]]]. exists d', segs. split; [right; exact Hin|exact Hrest].
Qed.

Theorem get_template_rejects isfile dirs uri :
  template_check uri = false ->
  get_template isfile dirs uri = TopLevelLookup \/ get_template isfile dirs uri = LookupExc.
Proof.
  intros Hck. induction dirs as [|d ds IH]; cbn [get_template]; [left; reflexivity|].
  destruct (isfile _); [rewrite Hck; right; reflexivity|exact IH].
Qed.

(* include / inherit / namespace: whatever adjust_uri produces is again just a URI *)
Theorem adjust_then_lookup_contained isfile dirs uri relativeto f :
  get_template isfile dirs (adjust_uri uri relativeto) = Found f ->
  exists d segs, In d dirs /\
    norm_stack (join d (clean_lookup (adjust_uri uri relativeto))) = segs ++ norm_stack d /\
    Forall plainP segs.
Proof.
  intros H. destruct (get_template_contained _ _ _ _ H) as [d [segs [Hin [_ [Hs [_ Hp]]]]]].
  exists d, segs. auto.
Qed.
