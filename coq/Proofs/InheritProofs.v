(* Proofs/InheritProofs.v -- C06: lookup_from and attr_from are one walk with two tests: from template i toward the base, the
   first template that passes; its specification is proved once and both lookups, and the block guard, rest on it *)
From MakoV Require Import Lib.Str Model.Inherit.
Open Scope N_scope.

Definition defines (c : chain) (j : nat) (x : N) : Prop := exists t, nth_error c j = Some t /\ has_def t x = true.

Section TowardsBase.
(* the walk tests with a boolean; the specifications speak of a Prop (attr_from tests memN, binds_attr says In) *)
Variables (p : tmpl -> bool) (P : tmpl -> Prop).
Hypothesis p_spec : forall t, p t = true <-> P t.

Fixpoint first_from (c : chain) (i : nat) : option nat :=
  match c with
  | [] => None
  | t :: r =>
      match i with
      | S i' => option_map S (first_from r i')
      | O => if p t then Some O else option_map S (first_from r O)
      end
  end.

Definition passes (c : chain) (j : nat) : Prop := exists t, nth_error c j = Some t /\ P t.

(* what the walk answers: the first template from i on that passes, or that none does *)
Lemma first_from_cases : forall c i,
  match first_from c i with
  | Some j => (i <= j)%nat /\ passes c j /\ forall m, (i <= m < j)%nat -> ~ passes c m
  | None => forall m, (i <= m)%nat -> ~ passes c m
  end.
Proof.
  induction c as [|t r IH]; intros i; cbn [first_from]; [intros [|m] _ (t' & [=] & _)|].
  destruct i as [|i]; [destruct (p t) eqn:E|].
  - split; [lia|]. split; [exists t; split; [reflexivity|apply p_spec, E]|lia].
  - assert (H0 : ~ passes (t :: r) O) by (intros (t' & [= <-] & Ht'); apply p_spec in Ht'; congruence).
    specialize (IH O). destruct (first_from r O) as [j0|]; cbn [option_map].
    + destruct IH as (_ & Hj & Hmin). split; [lia|]. split; [exact Hj|]. intros [|m] Hm; [exact H0|apply Hmin; lia].
    + intros [|m] Hm; [exact H0|apply IH; lia].
  - specialize (IH i). destruct (first_from r i) as [j0|]; cbn [option_map].
    + destruct IH as (Hle & Hj & Hmin). split; [lia|]. split; [exact Hj|]. intros [|m] Hm; [lia|apply Hmin; lia].
    + intros [|m] Hm; [lia|apply IH; lia].
Qed.

Lemma first_from_spec c i j :
  first_from c i = Some j <-> ((i <= j)%nat /\ passes c j /\ forall m, (i <= m < j)%nat -> ~ passes c m).
Proof.
  pose proof (first_from_cases c i) as H. destruct (first_from c i) as [j'|].
  - split; [intros [= <-]; exact H|]. intros (Hle & Hj & Hmin). destruct H as (Hle' & Hj' & Hmin'). f_equal.
    destruct (PeanoNat.Nat.lt_trichotomy j j') as [Hlt|[Heq|Hgt]]; [|symmetry; exact Heq|].
    + destruct (Hmin' j); [lia|exact Hj].
    + destruct (Hmin j'); [lia|exact Hj'].
  - split; [discriminate|]. intros (Hle & Hj & _). destruct (H j Hle Hj).
Qed.
End TowardsBase.

Lemma lookup_from_first x : forall c i, lookup_from c i x = first_from (fun t => has_def t x) c i.
Proof. induction c as [|t r IH]; intros [|i]; cbn [lookup_from first_from]; rewrite ?IH; reflexivity. Qed.

Lemma attr_from_first x : forall c i, attr_from c i x = first_from (fun t => memN x (attrs t)) c i.
Proof. induction c as [|t r IH]; intros [|i]; cbn [attr_from first_from]; rewrite ?IH; reflexivity. Qed.

(* every namespace answers with its own definition of a member, else the nearest one further toward the base *)
Theorem ns_lookup_towards_base : forall c i x j,
  lookup_from c i x = Some j <-> ((i <= j)%nat /\ defines c j x /\ forall m, (i <= m < j)%nat -> ~ defines c m x).
Proof.
  intros c i x j. rewrite lookup_from_first. exact (first_from_spec _ (fun t => has_def t x = true) (fun t => iff_refl _) c i j).
Qed.

(* self.X is the most derived definition of X *)
Theorem self_is_most_derived c x j :
  lookup_from c O x = Some j <-> (defines c j x /\ forall m, (m < j)%nat -> ~ defines c m x).
Proof.
  rewrite ns_lookup_towards_base. split.
  - intros (_ & H1 & H2). split; [exact H1|]. intros m Hm. apply H2. lia.
  - intros (H1 & H2). repeat split; [lia|exact H1|]. intros m Hm. apply H2. lia.
Qed.

(* next and parent are the adjacent templates, local is the template itself *)
Theorem next_parent_adjacent c k : (k < length c)%nat ->
  resolve c k WLocal = Some k /\ resolve c k WSelf = Some O /\
  (resolve c k WNext = match k with O => None | S k' => Some k' end) /\
  (resolve c k WParent = if Nat.ltb (S k) (length c) then Some (S k) else None).
Proof. intros _. repeat split. Qed.

(* a named block is rendered at its position in template k exactly when no template further toward
   the base defines a member of that name: among the templates that declare it, only the base-most *)
Theorem named_block_guard c k b : (k < length c)%nat ->
  (block_renders c k b = true <-> forall j, (k < j)%nat -> ~ defines c j b).
Proof.
  intros _. unfold block_renders, resolve. destruct (PeanoNat.Nat.ltb_spec (S k) (length c)) as [Hlt|Hge].
  - pose proof (first_from_cases _ (fun t => has_def t b = true) (fun t => iff_refl _) c (S k)) as H.
    rewrite <- lookup_from_first in H. destruct (lookup_from c (S k) b) as [j0|].
    + destruct H as (Hle & Hd & _). split; [discriminate|]. intros H. destruct (H j0); [lia|exact Hd].
    + split; [|reflexivity]. intros _ j Hj. apply H. lia.
  - split; [|reflexivity]. intros _ j Hj (tj & Hn & _).
    assert (j < length c)%nat by (apply nth_error_Some; congruence). lia.
Qed.

Theorem named_block_at_most_once c k1 k2 b : (k1 < k2 < length c)%nat ->
  defines c k2 b -> block_renders c k1 b = false.
Proof.
  intros Hk Hd. apply not_true_is_false. intros E.
  destruct (proj1 (named_block_guard c k1 b ltac:(lia)) E k2); [lia|exact Hd].
Qed.

Definition binds_attr (c : chain) (j : nat) (x : N) : Prop := exists t, nth_error c j = Some t /\ In x (attrs t).

(* module attributes are found the same way: the template's own module, else the nearest toward the
   base that binds the name -- whatever value it binds it to *)
Theorem attr_lookup_towards_base : forall c i x j,
  attr_from c i x = Some j -> (i <= j)%nat /\ binds_attr c j x /\ forall m, (i <= m < j)%nat -> ~ binds_attr c m x.
Proof. intros c i x j. rewrite attr_from_first. apply first_from_spec. intros t. apply memN_In. Qed.
