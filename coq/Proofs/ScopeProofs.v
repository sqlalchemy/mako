(* Proofs/ScopeProofs.v -- C04: the order of the layers a name is looked up in, what a context made by _locals answers
   (locals_assoc, behind what a def called from the body sees), and the reserved names *)
From MakoV Require Import Lib.Str Gen.Reserved Model.Scope.
Open Scope N_scope.

(* the order of the layers: a hit in an earlier layer hides every later one *)
Theorem resolution_order {V} (e : env V) x :
  resolve e x =
    match assocN x (e_locals e), assocN x (e_module e), assocN x (e_imports e), assocN x (e_context e), assocN x (e_builtins e) with
    | Some v, _, _, _, _ => FValue LLocal v
    | None, Some v, _, _, _ => FValue LModule v
    | None, None, Some v, _, _ => FValue LImport v
    | None, None, None, Some v, _ => FValue LContext v
    | None, None, None, None, Some v => FValue LBuiltin v
    | None, None, None, None, None => if e_strict e then FNameError else FUndefined
    end.
Proof. reflexivity. Qed.

Theorem strict_only_changes_the_last_case {V} (e : env V) x v l :
  resolve e x = FValue l v ->
  resolve {| e_locals := e_locals e; e_module := e_module e; e_imports := e_imports e; e_context := e_context e; e_builtins := e_builtins e; e_strict := negb (e_strict e) |} x = FValue l v.
Proof.
  unfold resolve. cbn [e_locals e_module e_imports e_context e_builtins e_strict].
  destruct (assocN x (e_locals e)); [exact (fun H => H)|]. destruct (assocN x (e_module e)); [exact (fun H => H)|].
  destruct (assocN x (e_imports e)); [exact (fun H => H)|]. destruct (assocN x (e_context e)); [exact (fun H => H)|].
  destruct (assocN x (e_builtins e)); [exact (fun H => H)|]. destruct (e_strict e); discriminate.
Qed.

Lemma assocN_app_some {A} k (a b : list (N * A)) v : assocN k a = Some v -> assocN k (a ++ b) = Some v.
Proof. intros H. rewrite assocN_app, H. reflexivity. Qed.

Lemma locals_assoc {V} (c : context V) d x :
  assocN x (c_data (locals_ c d)) = match assocN x d with Some v => Some v | None => assocN x (c_data c) end.
Proof. destruct d; [reflexivity|]. apply assocN_app. Qed.

(* template code never alters the data seen by other scopes or by the caller of render: _locals gives a
   new context and leaves the one it was called on, and kwargs, as they were *)
Theorem locals_leaves_the_original {V} (c : context V) d :
  c_kwargs (locals_ c d) = c_kwargs c /\
  (forall x, assocN x d = None -> assocN x (c_data (locals_ c d)) = assocN x (c_data c)) /\
  (forall x v, assocN x d = Some v -> assocN x (c_data (locals_ c d)) = Some v).
Proof.
  split; [destruct d; reflexivity|]. split; intros x; [|intros v]; intros H; rewrite locals_assoc, H; reflexivity.
Qed.

Theorem kwargs_are_the_render_arguments {V} (args extras : list (N * V)) : c_kwargs (new_context args extras) = args.
Proof. reflexivity. Qed.

(* a def called by name from the body sees the current value of a name the body has assigned, else the
   page argument / context value, else the builtin *)
Theorem def_sees_current_assignment {V} (c : context V) mlocals builtins x v rest :
  run_body c mlocals builtins (BAssign x v :: BCallDef x :: rest) =
    FValue LContext v :: run_body c ((x, v) :: mlocals) builtins rest.
Proof.
  cbn [run_body]. f_equal. unfold resolve. cbn [e_locals e_module e_imports e_context assocN locals_ c_data app]. rewrite N.eqb_refl. reflexivity.
Qed.

Theorem def_sees_context_when_body_has_not_assigned {V} (c : context V) mlocals builtins x rest :
  assocN x mlocals = None ->
  run_body c mlocals builtins (BCallDef x :: rest) =
    (match assocN x (c_data c) with
     | Some v => FValue LContext v
     | None => match assocN x builtins with Some v => FValue LBuiltin v | None => FUndefined end
     end) :: run_body c mlocals builtins rest.
Proof.
  intros H. cbn [run_body]. f_equal. unfold resolve. cbn [e_locals e_module e_imports e_context e_builtins e_strict assocN].
  rewrite locals_assoc, H. reflexivity.
Qed.

(* the reserved names: loop is reserved exactly while enabled; the others always *)
Theorem reserved_rejected :
  conflict true [s2l "context"] = true /\ conflict true [s2l "UNDEFINED"] = true /\ conflict true [s2l "STOP_RENDERING"] = true /\
  conflict true [s2l "loop"] = true /\ conflict false [s2l "loop"] = false /\
  conflict false [s2l "context"] = true /\ conflict false [s2l "UNDEFINED"] = true /\ conflict false [s2l "STOP_RENDERING"] = true.
Proof. vm_compute. repeat split. Qed.

Theorem conflict_iff enable_loop names :
  conflict enable_loop names = true <-> exists x, In x names /\ In x (reserved enable_loop).
Proof.
  unfold conflict. rewrite existsb_exists. split.
  - intros (x & Hx & H). apply existsb_exists in H as (y & Hy & E). apply str_eqb_eq in E. subst y. exists x. split; assumption.
  - intros (x & Hx & Hr). exists x. split; [exact Hx|]. apply existsb_exists. exists x. split; [exact Hr|apply str_eqb_refl].
Qed.
