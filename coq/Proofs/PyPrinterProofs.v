(* Proofs/PyPrinterProofs.v -- C03, the printer: a run over two lists of lines is the run over the first
   followed by the run over the second (prun_app), so a tree of control structures is printed at its
   depths by induction on the tree, with one step lemma per kind of line; and the pass rule *)
From MakoV Require Import Lib.Str Model.PyPrinter.

Scheme ctree_mut := Induction for ctree Sort Prop
with ctrees_mut := Induction for ctrees Sort Prop
with cclauses_mut := Induction for cclauses Sort Prop.
Combined Scheme ctree_all_ind from ctree_mut, ctrees_mut, cclauses_mut.

Lemma prun_app ks1 : forall s ks2 s1 w1,
  prun s ks1 = Some (s1, w1) ->
  prun s (ks1 ++ ks2) = match prun s1 ks2 with Some (s2, w2) => Some (s2, w1 ++ w2) | None => None end.
Proof.
  induction ks1 as [|k r IH]; intros s ks2 s1 w1 H; cbn [prun app] in *.
  - injection H as <- <-. destruct (prun s ks2) as [[s2 w2]|]; reflexivity.
  - destruct (pstep s k) as [s' w|]; [|discriminate].
    destruct (prun s' r) as [[s'' ws]|] eqn:E; [|discriminate]. injection H as <- <-.
    rewrite (IH s' ks2 s'' ws E). destruct (prun s'' ks2) as [[s2 w2]|]; [|reflexivity].
    destruct w; reflexivity.
Qed.

Definition st (d : nat) (stk : list bool) : pstate := {| indent := d; detail := stk |}.

(* a line with text that is neither a comment nor a clause is written at the current level; if it
   opens a block the level rises and its flag is remembered *)
Lemma pstep_text d stk opens pushes :
  pstep (st d stk) (LLine false true false opens pushes) =
    POk (match pushes with Some b => st (S d) (b :: stk) | None => st d stk end) (Some d).
Proof. destruct stk as [|[|] stk']; reflexivity. Qed.

(* a clause after a block that allows one is written one level up and opens its own block there *)
Lemma pstep_clause d stk : pstep (st (S d) (true :: stk)) k_clause = POk (st (S d) (true :: stk)) (Some d).
Proof. reflexivity. Qed.

Lemma pstep_close d b stk : pstep (st (S d) (b :: stk)) LNone = POk (st d stk) None.
Proof. reflexivity. Qed.

(* for every tree of control structures, at every depth and under every stack: each line is written
   at its depth in the tree, and the printer ends in the state it started in *)
Lemma printer_depth_all :
  (forall t d stk, prun (st d stk) (emit t) = Some (st d stk, depths d t)) /\
  (forall l d stk, prun (st d stk) (emits l) = Some (st d stk, depths_l d l)) /\
  (forall c d stk, prun (st (S d) (true :: stk)) (emit_clauses c) = Some (st (S d) (true :: stk), depths_c d c)).
Proof.
  apply ctree_all_ind; cbn [emit emits emit_clauses depths depths_l depths_c prun].
  - (* TPlain *) intros d stk. unfold k_plain. rewrite pstep_text. reflexivity.
  - (* TComment *) intros d stk. reflexivity.
  - (* TBlock *) intros body IHb clauses IHc d stk. unfold k_open. rewrite pstep_text.
    rewrite (prun_app _ _ _ _ _ (IHb (S d) (true :: stk))), (prun_app _ _ _ _ _ (IHc d stk)).
    cbn [prun]. rewrite pstep_close, app_nil_r. reflexivity.
  - (* TDef *) intros body IHb d stk. unfold k_def. rewrite pstep_text.
    rewrite (prun_app _ _ _ _ _ (IHb (S d) (false :: stk))). cbn [prun]. rewrite pstep_close, app_nil_r. reflexivity.
  - (* TNil *) intros d stk. reflexivity.
  - (* TCons *) intros t IHt r IHr d stk. rewrite (prun_app _ _ _ _ _ (IHt d stk)), (IHr d stk). reflexivity.
  - (* CNil *) intros d stk. reflexivity.
  - (* CCons *) intros body IHb r IHr d stk. rewrite pstep_clause.
    rewrite (prun_app _ _ _ _ _ (IHb (S d) (true :: stk))), (IHr d stk). reflexivity.
Qed.

Theorem printer_indent_is_depth t d stk : prun (st d stk) (emit t) = Some (st d stk, depths d t).
Proof. apply (proj1 printer_depth_all). Qed.

(* the input on which the defect repaired in 67f02c6 showed: were a clause remembered like a def, a
   second clause would be written one level too deep *)
Example second_clause_needs_the_clause_flag :
  prun pinit [k_open; k_plain; LLine false true true true (Some false); k_plain; LLine false true true true (Some false); k_plain; LNone]
  = Some ({| indent := 1; detail := [false] |}, [0; 1; 0; 1; 1; 2]%nat).
Proof. reflexivity. Qed.

(* for every list of children: a block without a statement of its own gets a pass *)
Theorem no_empty_block cs : needs_pass cs = false -> body_has_statement (visible cs) = true.
Proof.
  unfold needs_pass. destruct (visible cs) as [|c0 r0] eqn:E; [discriminate|]. rewrite <- E. clear c0 r0 E.
  (* a silent or hidden child leaves the three tests to the children after it; an emitting child is a statement of the block;
     at a control line the search succeeds *)
  induction cs as [|c r IH]; [discriminate|]. destruct c; cbn; auto; rewrite orb_true_r; discriminate.
Qed.

(* the input on which the defect repaired in d004aa2 showed: a def as the only content of a block, with its own
   text listed among the children, gets a pass *)
Example silent_only_body_gets_pass : needs_pass [ChSilent; ChHidden; ChEnd] = true /\ needs_pass [ChSilent; ChEmits; ChEnd] = false.
Proof. split; reflexivity. Qed.
