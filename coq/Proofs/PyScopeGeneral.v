(* Proofs/PyScopeGeneral.v -- C19, FindIdentifiers on all programs, nested scopes included: every name
   the code needs from the template's namespace is recorded as undeclared, or else is (wrongly) recorded
   as declared by the block itself.  [step] says how a piece of code moves the state of the analysis;
   expressions, statements and scopes are steps, and steps compose *)
From MakoV Require Import Lib.Str Model.PyScope.
Open Scope N_scope.

Lemma minus_In x a b : In x (minus a b) <-> In x a /\ ~ In x b.
Proof. unfold minus. rewrite filter_In, negb_true_iff, memN_false. reflexivity. Qed.

(* code that reads the names fa and binds the names ba takes the analysis from s to s'.  The fifth clause, that
   the only new locals are those in ba, is what a nested scope is closed with (step_scope) *)
Definition step (fa ba : list N) (s s' : fstate) : Prop :=
  in_function s' = in_function s /\
  (forall x, In x (declared s) -> In x (declared s')) /\
  (forall x, In x (undeclared s) -> In x (undeclared s')) /\
  (forall x, In x (locals s) -> In x (locals s')) /\
  (forall x, In x (locals s') -> In x (locals s) \/ In x ba) /\
  (forall x, In x fa -> In x (declared s') \/ In x (locals s') \/ In x (undeclared s')).

Lemma step_id s : step [] [] s s.
Proof. repeat split; auto; intros x []. Qed.

Lemma step_seq fa ba fb bb s s1 s2 : step fa ba s s1 -> step fb bb s1 s2 -> step (fa ++ fb) (ba ++ bb) s s2.
Proof.
  intros (I1 & D1 & U1 & L1 & G1 & F1) (I2 & D2 & U2 & L2 & G2 & F2).
  split; [congruence|]. do 3 (split; [auto|]). split; intros x; rewrite in_app_iff; intros H.
  - apply G2 in H as [H|H]; [apply G1 in H|]; tauto.
  - destruct H as [H|H]; [|exact (F2 x H)]. destruct (F1 x H) as [H'|[H'|H']]; auto.
Qed.

Lemma step_weaken fa fa' ba s s' : (forall x, In x fa' -> In x fa) -> step fa ba s s' -> step fa' ba s s'.
Proof. intros Hf (I & D & U & L & G & F). repeat (split; [assumption|]). intros x H. apply F, Hf, H. Qed.

Lemma step_fold {A} (g : fstate -> A -> fstate) (fr bd : A -> list N) :
  (forall a s, step (fr a) (bd a) s (g s a)) -> forall l s, step (flat_map fr l) (flat_map bd l) s (fold_left g l s).
Proof.
  intros H. induction l as [|a r IH]; intros s; cbn [flat_map fold_left]; [apply step_id|].
  eapply step_seq; [apply H|apply IH].
Qed.

Lemma step_read s x : step [x] [] s (read_name s x).
Proof.
  unfold read_name. destruct (memN x (declared s) || memN x (locals s)) eqn:E.
  - destruct (step_id s) as (I & D & U & L & G & _). repeat (split; [assumption|]). intros y [<-|[]].
    apply orb_true_iff in E as [E|E]; apply memN_In in E; [left|right; left]; exact E.
  - repeat split; cbn; auto. intros y [<-|[]]. right; right; left; reflexivity.
Qed.

Lemma add_declared_fold t : forall s, fold_left add_declared t s =
  if in_function s then {| in_function := true; locals := rev t ++ locals s; declared := declared s; undeclared := undeclared s |}
  else {| in_function := false; locals := locals s; declared := rev t ++ declared s; undeclared := undeclared s |}.
Proof.
  induction t as [|a r IH]; intros s; cbn [fold_left rev].
  - destruct s as [[] ? ? ?]; reflexivity.
  - rewrite IH. unfold add_declared. destruct (in_function s); cbn; rewrite <- app_assoc; reflexivity.
Qed.

Lemma step_adds t s : step [] t s (fold_left add_declared t s).
Proof.
  rewrite add_declared_fold. unfold step.
  destruct (in_function s); cbn; repeat split; auto;
    intros x; rewrite ?in_app_iff, <- ?in_rev; tauto.
Qed.

(* at block level the names go to [declared]: no local is bound *)
Lemma step_adds_top t s : in_function s = false -> step [] [] s (fold_left add_declared t s).
Proof.
  intros E. rewrite add_declared_fold, E. unfold step.
  cbn; repeat split; auto; intros x; rewrite ?in_app_iff; tauto.
Qed.

Lemma step_bind fa ba t s s1 : step fa ba s s1 -> step fa (ba ++ t) s (fold_left add_declared t s1).
Proof. intros H. rewrite <- (app_nil_r fa). exact (step_seq _ _ _ _ _ _ _ H (step_adds t s1)). Qed.

(* leaving a scope: the code inside ran from s1 to s2, the locals are those of s0 again.  What it
   read is free outside unless hidden by a name that was local only inside *)
Lemma step_scope hide fa ba s0 s1 s2 :
  (forall x, In x (declared s0) -> In x (declared s1)) -> (forall x, In x (undeclared s0) -> In x (undeclared s1)) ->
  (forall x, In x (locals s1) \/ In x ba -> In x hide \/ In x (locals s0)) ->
  step fa ba s1 s2 ->
  step (minus fa hide) [] s0 {| in_function := in_function s0; locals := locals s0; declared := declared s2; undeclared := undeclared s2 |}.
Proof.
  intros D0 U0 Hh (_ & D & U & _ & G & F). unfold step in *. cbn. repeat split; auto.
  intros x Hx. apply minus_In in Hx as [Hx Hn]. destruct (F x Hx) as [H|[H|H]]; auto.
  apply G, Hh in H. tauto.
Qed.

(* not an instance of step_fold: flat_map (fun _ => []) l does not compute to [] *)
Lemma step_exprs f (IH : forall e s, step (free_expr f e) [] s (fi_expr f s e)) l :
  forall s, step (flat_map (free_expr f) l) [] s (fold_left (fi_expr f) l s).
Proof.
  induction l as [|e r IHl]; intros s; cbn [flat_map fold_left]; [apply step_id|].
  exact (step_seq _ [] _ [] _ _ _ (IH e s) (IHl _)).
Qed.

Lemma step_expr : forall f e s, step (free_expr f e) [] s (fi_expr f s e).
Proof.
  induction f as [|f IH]; intros e s; [apply step_id|].
  destruct e as [x| |l|ps ds b|el tg it ifs]; cbn [fi_expr free_expr].
  - apply step_read.
  - apply step_id.
  - apply step_exprs, IH.
  - (* lambda: the defaults outside, the body in a scope where the parameters are local *)
    eapply (step_seq _ [] _ []); [apply step_exprs, IH|].
    eapply step_scope; [| | |apply IH]; cbn; auto.
    intros x [H|[]]. apply in_app_or, H.
  - destruct (in_function s) eqn:E.
    + (* the iterable outside; targets, conditions and elements in a scope of their own *)
      eapply (step_seq _ [] _ []); [apply IH|].
      apply (step_weaken (minus (flat_map (free_expr f) ifs ++ flat_map (free_expr f) el) tg)).
      { intros x. rewrite !minus_In, !in_app_iff. tauto. }
      destruct (step_adds tg (fi_expr f s it)) as (_ & D & U & _ & G & _).
      eapply (step_scope tg _ []); [exact D|exact U| |].
      * intros x [H|[]]. apply G in H. tauto.
      * exact (step_seq _ [] _ [] _ _ _ (step_exprs f IH ifs _) (step_exprs f IH el _)).
    + (* at block level everything happens in the block's own state; the targets become declared *)
      apply (step_weaken (flat_map (free_expr f) el ++ free_expr f it ++ flat_map (free_expr f) ifs)).
      { intros x. rewrite !in_app_iff, minus_In, in_app_iff. tauto. }
      pose proof (step_exprs f IH el s) as P1.
      assert (E1 : in_function (fold_left (fi_expr f) el s) = false) by (destruct P1 as (I & _); congruence).
      apply (step_seq _ [] _ [] _ _ _ P1). apply (step_seq [] [] _ [] _ _ _ (step_adds_top tg _ E1)).
      exact (step_seq _ [] _ [] _ _ _ (IH it _) (step_exprs f IH ifs _)).
Qed.

Lemma step_stmts : forall f l s, step (free_stmts f l) (binds f l) s (fold_left (fi_stmt f) l s).
Proof.
  induction f as [|f IH]; intros l.
  - induction l as [|a r IHl]; intros s; [apply step_id|apply IHl].
  - (* the pieces of a statement are composed from the right: then the lists of names come out as
       free_stmts and binds write them, since [] ++ l computes *)
    pose proof (step_expr f) as IHe. cbn [free_stmts binds]. apply step_fold. clear l.
    intros [e|t e|t it b o|t b o|n|name ps ds body|b ty n h] s; cbn [fi_stmt].
    + apply IHe.
    + apply (step_bind _ []), IHe.
    + eapply step_seq; [apply (step_bind _ []), IHe|]. eapply step_seq; apply IH.
    + eapply (step_seq _ []); [apply IHe|]. eapply step_seq; apply IH.
    + apply step_adds.
    + (* def: the name is bound, the defaults are read outside, the body runs in a scope where the
         parameters and what it binds are local *)
      apply (step_seq [] [name] _ [] _ _ _ (step_adds [name] s)).
      eapply (step_seq _ [] _ []); [apply step_exprs, IHe|].
      eapply step_scope; [| | |apply IH]; cbn; auto.
      intros x. rewrite !in_app_iff. tauto.
    + (* try: the body, the name of the exception, its type, the handler.  The states in between are
         read off the end state, so the later step is done first *)
      eapply step_seq; [apply IH|]. eapply (step_seq []); [|eapply (step_seq _ []); [|apply IH]].
      2: destruct ty as [t|]; [apply IHe|apply step_id].
      destruct n as [n0|]; [apply (step_adds [n0])|apply step_id].
Qed.

(* for every program and every depth -- nested defs, lambdas with every parameter kind and defaults,
   comprehensions, loops, try blocks --: every name the code needs from the template's namespace is
   recorded as undeclared, unless the analysis records it as declared by the block *)
Theorem needed_names_demanded_or_declared n code x :
  In x (needs_f n code) -> In x (snd (find_identifiers_f n code)) \/ In x (fst (find_identifiers_f n code)).
Proof.
  unfold needs_f, find_identifiers_f. cbn [fst snd]. intros H. apply minus_In in H as [Hf Hb].
  destruct (step_stmts n code f0) as (_ & _ & _ & _ & G & F).
  destruct (F x Hf) as [H|[H|H]]; [right; exact H| |left; exact H].
  apply G in H as [[]|H]. contradiction.
Qed.
