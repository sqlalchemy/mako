(* Proofs/CacheProofs.v -- C17: cached sections.  What one render of a cached section returns and stores, by unfolding; what
   any render leaves alone (the cache_enabled flags, the entries of other cache ids), by one induction (Section Across);
   the precedence of the backend arguments. *)
From MakoV Require Import Lib.Str Model.Cache.
Open Scope N_scope.

Lemma pair_eqb_refl k : pair_eqb k k = true.
Proof. unfold pair_eqb. rewrite !str_eqb_refl. reflexivity. Qed.

Lemma pair_eqb_eq a b : pair_eqb a b = true <-> a = b.
Proof.
  unfold pair_eqb. rewrite andb_true_iff, !str_eqb_eq. destruct a, b; cbn [fst snd].
  split; [intros [-> ->]; reflexivity|intros [= -> ->]; auto].
Qed.

Lemma slookup_sdel_same k l : slookup k (sdel k l) = None.
Proof.
  induction l as [|[k' v] r IH]; [reflexivity|]. cbn [sdel].
  destruct (pair_eqb k k') eqn:E; [exact IH|]. cbn [slookup]. rewrite E. exact IH.
Qed.

Lemma slookup_sdel_other k j l : pair_eqb k j = false -> slookup k (sdel j l) = slookup k l.
Proof.
  intros H. induction l as [|[k' v] r IH]; [reflexivity|]. cbn [sdel slookup].
  destruct (pair_eqb j k') eqn:E.
  - apply pair_eqb_eq in E. subst k'. rewrite H. exact IH.
  - cbn [slookup]. destruct (pair_eqb k k'); [reflexivity|exact IH].
Qed.

Lemma slookup_sput_same k v l : slookup k (sput k v l) = Some v.
Proof. unfold sput. cbn [slookup]. rewrite pair_eqb_refl. reflexivity. Qed.

Lemma slookup_sput_other k j v l : pair_eqb k j = false -> slookup k (sput j v l) = slookup k l.
Proof. intros H. unfold sput. cbn [slookup]. rewrite H. apply slookup_sdel_other. exact H. Qed.

Lemma pair_eqb_fst_neq a b : fst a <> fst b -> pair_eqb a b = false.
Proof. intros H. destruct (pair_eqb a b) eqn:E; [|reflexivity]. apply pair_eqb_eq in E. subst b. contradiction. Qed.

(* All a render does to the state is bump counters and put values under the cache id of its own template
   (_ctx_get_or_create, on a miss), again and again: a relation between states that holds across each of these, and is
   reflexive and transitive, holds across every render. *)
Section Across.
  Variable uri : str.
  Variable R : cstate -> cstate -> Prop.
  Hypothesis R_refl : forall s, R s s.
  Hypothesis R_trans : forall a b c, R a b -> R b c -> R a c.
  Hypothesis R_counters : forall s c, R s (with_counters s c).
  Hypothesis R_store : forall s k v, R s (with_store s (sput (module_id uri, k) v (store s))).

  Definition across (rec : renderer) : Prop := forall ctx s x v s', rec uri ctx s x = Some (v, s') -> R s s'.

  Lemma kids_across rec : across rec -> forall ctx l s vs s', render_kids rec uri ctx s l = Some (vs, s') -> R s s'.
  Proof.
    intros Hrec ctx l. induction l as [|k r IH]; intros s vs s' H; cbn [render_kids] in H.
    - injection H as _ <-. apply R_refl.
    - destruct (rec uri ctx s k) as [[v s1]|] eqn:Hk; [|discriminate].
      destruct (render_kids rec uri ctx s1 r) as [[vs' s2]|] eqn:Hr; [|discriminate].
      injection H as _ <-. exact (R_trans _ _ _ (Hrec _ _ _ _ _ Hk) (IH _ _ _ Hr)).
  Qed.

  Lemma exec_across rec : across rec -> forall ctx s id kids v s', exec_sec rec uri ctx s id kids = Some (v, s') -> R s s'.
  Proof.
    intros Hrec ctx s id kids v s' H. unfold exec_sec in H.
    destruct (render_kids _ _ _ _ kids) as [[vs s2]|] eqn:Hk; [|discriminate].
    injection H as _ <-. exact (R_trans _ _ _ (R_counters _ _) (kids_across rec Hrec _ _ _ _ _ Hk)).
  Qed.

  Lemma body_across rec : across rec -> across (render_sec_body rec).
  Proof.
    intros Hrec ctx s x v s' H. destruct x as [id c key kids]. cbn [render_sec_body] in H.
    destruct (c && is_enabled s uri); [|exact (exec_across rec Hrec _ _ _ _ _ _ H)].
    destruct (slookup _ (store s)); [injection H as _ <-; apply R_refl|].
    destruct (exec_sec rec uri ctx s id kids) as [[v0 s2]|] eqn:Hx; [|discriminate].
    injection H as _ <-. exact (R_trans _ _ _ (exec_across rec Hrec _ _ _ _ _ _ Hx) (R_store _ _ _)).
  Qed.

  Lemma render_across fuel : across (render_sec fuel).
  Proof.
    induction fuel as [|n IH]; [intros ctx s x v s' H; discriminate|].
    cbn [render_sec]. apply body_across. exact IH.
  Qed.
End Across.

Lemma render_keeps_enabled fuel uri ctx s x v s' : render_sec fuel uri ctx s x = Some (v, s') -> enabled s' = enabled s.
Proof.
  apply (render_across uri (fun a b => enabled b = enabled a)); try reflexivity.
  intros a b c H1 H2. rewrite H2. exact H1.
Qed.

(* rendering one template leaves the entries of every other cache id as they were *)
Theorem render_isolated fuel uri ctx s x v s' :
  render_sec fuel uri ctx s x = Some (v, s') ->
  forall id k, id <> module_id uri -> slookup (id, k) (store s') = slookup (id, k) (store s).
Proof.
  apply (render_across uri
           (fun a b => forall id k, id <> module_id uri -> slookup (id, k) (store b) = slookup (id, k) (store a))).
  - reflexivity.
  - intros a b c H1 H2 id k Hne. rewrite (H2 id k Hne). exact (H1 id k Hne).
  - reflexivity.
  - intros a k' v' id k Hne. apply slookup_sput_other, pair_eqb_fst_neq. exact Hne.
Qed.

(* a hit replays the stored value: nothing runs, nothing changes *)
Theorem hit_replays f uri ctx s id key kids v :
  is_enabled s uri = true ->
  slookup (module_id uri, key_of ctx key) (store s) = Some v ->
  render_sec (S f) uri ctx s (Sec id true key kids) = Some (v, s).
Proof. intros He Hl. cbn [render_sec render_sec_body andb]. rewrite He, Hl. reflexivity. Qed.

(* a miss produces exactly what the uncached section produces from the same state, and stores it *)
Theorem miss_creates_uncached_output f uri ctx s id key kids v s' :
  is_enabled s uri = true ->
  slookup (module_id uri, key_of ctx key) (store s) = None ->
  render_sec (S f) uri ctx s (Sec id true key kids) = Some (v, s') ->
  exists s2,
    render_sec (S f) uri ctx s (Sec id false key kids) = Some (v, s2) /\
    s' = with_store s2 (sput (module_id uri, key_of ctx key) v (store s2)) /\
    slookup (module_id uri, key_of ctx key) (store s') = Some v.
Proof.
  intros He Hl H. cbn [render_sec render_sec_body andb] in *. rewrite He, Hl in H.
  destruct (exec_sec (render_sec f) uri ctx s id kids) as [[v0 s2]|] eqn:Ex; [|discriminate].
  injection H as <- <-. exists s2. split; [reflexivity|]. split; [reflexivity|].
  cbn [with_store store]. apply slookup_sput_same.
Qed.

(* an executed section reports a fresh execution number: its body really ran *)
Theorem uncached_runs f uri ctx s id key kids v s' :
  render_sec (S f) uri ctx s (Sec id false key kids) = Some (v, s') ->
  exists vs, v = Val id (cget id (counters s) + 1) (ctx 0) vs.
Proof.
  intros H. cbn [render_sec render_sec_body andb] in H. unfold exec_sec in H.
  destruct (render_kids _ _ _ _ kids) as [[vs s2]|] eqn:Ex; [|discriminate].
  injection H as <- <-. exists vs. reflexivity.
Qed.

(* after creation, every later render -- under any context that yields the same key -- returns
   the creation output unchanged and runs nothing *)
Theorem replay_equals_creation_output f uri ctx ctx' s id key kids v s' :
  is_enabled s uri = true ->
  slookup (module_id uri, key_of ctx key) (store s) = None ->
  render_sec (S f) uri ctx s (Sec id true key kids) = Some (v, s') ->
  key_of ctx' key = key_of ctx key ->
  render_sec (S f) uri ctx' s' (Sec id true key kids) = Some (v, s').
Proof.
  intros He Hl H Hk.
  destruct (miss_creates_uncached_output f uri ctx s id key kids v s' He Hl H) as [s2 [Hu [Hs' Hst]]].
  apply hit_replays.
  - unfold is_enabled in *. rewrite (render_keeps_enabled _ _ _ _ _ _ _ H). exact He.
  - rewrite Hk. exact Hst.
Qed.

(* invalidation removes the entry, so the next render runs the body again *)
Theorem invalidate_forces_rerun tm fuel s uri k s1 :
  cstep tm fuel s (Invalidate uri k) = Some ([], s1) ->
  slookup (module_id uri, k) (store s1) = None.
Proof. cbn [cstep]. intros [= <-]. cbn [with_store store]. apply slookup_sdel_same. Qed.

(* cache_enabled = False: the section behaves as if it were not cached at all *)
Theorem disabled_runs_every_time f uri ctx s id key kids :
  is_enabled s uri = false ->
  render_sec (S f) uri ctx s (Sec id true key kids) = render_sec (S f) uri ctx s (Sec id false key kids).
Proof. intros He. cbn [render_sec render_sec_body andb]. rewrite He. reflexivity. Qed.

(* operations that address another cache id leave a template's entries alone *)
Theorem isolation_partial tm fuel s uri' k' v k id :
  id <> module_id uri' ->
  (forall s1, cstep tm fuel s (Invalidate uri' k') = Some ([], s1) -> slookup (id, k) (store s1) = slookup (id, k) (store s)) /\
  (forall s1, cstep tm fuel s (CSet uri' k' v) = Some ([], s1) -> slookup (id, k) (store s1) = slookup (id, k) (store s)).
Proof.
  intros Hne.
  assert (E : pair_eqb (id, k) (module_id uri', k') = false) by (apply pair_eqb_fst_neq; exact Hne).
  split; intros s1; cbn [cstep]; intros [= <-]; cbn [with_store store].
  - apply slookup_sdel_other. exact E.
  - apply slookup_sput_other. exact E.
Qed.

(* "entries of one template are never served to another" is FALSE of the faithful model:
   two different URIs with the same module id; the second template's render returns the
   first template's section (id 1) -- known finding C17-F1 *)
Definition uri_a : str := s2l "/a-b".
Definition uri_b : str := s2l "/a_b".
Definition tm_ab : list (str * list sec) :=
  [(uri_a, [Sec 1 true (KConst (s2l "render_body")) []]);
   (uri_b, [Sec 2 true (KConst (s2l "render_body")) []])].

Theorem isolation_refuted :
  uri_a <> uri_b /\ module_id uri_a = module_id uri_b /\
  exists s1, crun tm_ab 5 cinit [Render uri_a 1; Render uri_b 2] = Some ([[Val 1 1 1 []]; [Val 1 1 1 []]], s1).
Proof.
  split; [discriminate|]. split; [vm_compute; reflexivity|]. eexists. vm_compute. reflexivity.
Qed.

Lemma aget_app k a b : aget k (a ++ b) = match aget k a with Some v => Some v | None => aget k b end.
Proof.
  induction a as [|[k' v] r IH]; [reflexivity|]. cbn [app aget]. destruct (str_eqb k k'); [reflexivity|exact IH].
Qed.

Lemma aget_filter k (p : str * N -> bool) l : (forall v, p (k, v) = true) -> aget k (filter p l) = aget k l.
Proof.
  intros H. induction l as [|[k' v] r IH]; [reflexivity|]. cbn [filter aget].
  destruct (str_eqb k k') eqn:Ek.
  - apply str_eqb_eq in Ek. subst k'. rewrite H. cbn [aget]. rewrite str_eqb_refl. reflexivity.
  - destruct (p (k', v)); [cbn [aget]; rewrite Ek|]; exact IH.
Qed.

Lemma aget_update k base over :
  aget k (update base over) = match aget k over with Some v => Some v | None => aget k base end.
Proof.
  unfold update. rewrite aget_app. destruct (aget k over) eqn:E; [reflexivity|].
  apply aget_filter. intros v. cbn [fst]. rewrite E. reflexivity.
Qed.

(* the template's cache_args overridden by the <%page> cache_* overridden by the section's own *)
Theorem args_precedence k tmpl page section :
  aget k (final_args tmpl page section) =
  match aget k section with
  | Some v => Some v
  | None => match aget k page with Some v => Some v | None => aget k tmpl end
  end.
Proof.
  unfold final_args. rewrite !aget_update. destruct (aget k section); [reflexivity|].
  destruct (aget k page); reflexivity.
Qed.

(* _get_cache_kw: every render hands the backend its own arguments, whatever was asked before (an invalidate_*() before
   the first render included: the history of the repaired defect C17-F2) *)
Theorem render_args_are_its_own regions d tmpl kw :
  fst (get_cache_kw regions d true tmpl kw) = update tmpl kw.
Proof. reflexivity. Qed.

Theorem invalidate_records_nothing regions d tmpl kw :
  snd (get_cache_kw regions d false tmpl kw) = regions.
Proof. unfold get_cache_kw. destruct (assocS d regions); reflexivity. Qed.

(* ... and addresses the backend with the arguments of the section's last render *)
Theorem invalidate_uses_last_render_args regions d tmpl kw kw' :
  let regions1 := snd (get_cache_kw regions d true tmpl kw) in
  fst (get_cache_kw regions1 d false tmpl kw') = update tmpl kw.
Proof. unfold get_cache_kw. cbn [snd assocS]. rewrite str_eqb_refl. reflexivity. Qed.

Example early_invalidate_then_render :
  let tmpl := [(s2l "timeout", 7)] in let kw := [(s2l "timeout", 90)] in let d := s2l "render_body" in
  let regions1 := snd (get_cache_kw [] d false tmpl []) in          (* invalidate_body() first *)
  fst (get_cache_kw regions1 d true tmpl kw) = [(s2l "timeout", 90)].  (* then the section renders *)
Proof. vm_compute. reflexivity. Qed.
