(* Proofs/IdentsProofs.v -- every name read in a scope is bound there, inherited, or hoisted *)
From MakoV Require Import Lib.Str Model.Idents.
Open Scope N_scope.

(* the names a node reads in the scope it is met in (a block's content counts in that scope) *)
Fixpoint reads_of (fuel : nat) (n : tnode) : list N :=
  match fuel with
  | O => []
  | S f =>
      match n with
      | TCheck u _ | TCode u _ | TPage _ u _ => u
      | TDef _ _ _ sig_u _ => sig_u
      | TBlock named name _ sig_u body => sig_u ++ (if named then [name] else []) ++ flat_map (reads_of f) body
      | TCall sig_u _ _ => sig_u
      | TNamespace _ => []
      | TFor u _ inside => if inside then n_loop :: u else u
      end
  end.

(* declared is kept equal, not grown: a traversal never changes what the scope inherited *)
Definition grows (s s' : ids) : Prop :=
  declared s' = declared s /\
  (forall x, In x (undeclared s) -> In x (undeclared s')) /\
  (forall x, In x (locally_declared s) -> In x (locally_declared s')).

Lemma grows_refl s : grows s s. Proof. repeat split; auto. Qed.
Lemma grows_trans a b c : grows a b -> grows b c -> grows a c.
Proof. intros (A1 & A2 & A3) (B1 & B2 & B3). repeat split; [congruence|auto|auto]. Qed.

Lemma grows_binds_local s d : grows s (binds_local s d). Proof. repeat split; cbn; auto using in_or_app. Qed.
Lemma grows_assigns s d : grows s (assigns s d). Proof. repeat split; cbn; auto. Qed.
Lemma grows_args s a : grows s (args_ s a). Proof. repeat split; cbn; auto. Qed.
Lemma grows_add_top s n : grows s (add_top s n). Proof. repeat split; cbn; auto. Qed.
Lemma grows_add_closure s n : grows s (add_closure s n). Proof. repeat split; cbn; auto. Qed.

Definition covered (x : N) (s' : ids) : Prop :=
  In x (declared s') \/ In x (locally_declared s') \/ In x (undeclared s').

Lemma covered_grows x a b : covered x a -> grows a b -> covered x b.
Proof. intros [H|[H|H]] (G1 & G2 & G3); [left; rewrite G1; exact H|right; left; auto|right; right; auto]. Qed.

(* from s to s' the scope has only grown, and every name in rd (other than context) is covered in s': what every
   step of a traversal does for the names it reads.  Steps compose, the names adding up *)
Definition accounts (rd : list N) (s s' : ids) : Prop :=
  grows s s' /\ forall x, In x rd -> x <> n_context -> covered x s'.

Lemma accounts_nil s s' : grows s s' -> accounts [] s s'.
Proof. intros G. split; [exact G|intros x []]. Qed.

Lemma accounts_app r1 r2 a b c : accounts r1 a b -> accounts r2 b c -> accounts (r1 ++ r2) a c.
Proof.
  intros (G1 & C1) (G2 & C2). split; [eapply grows_trans; eassumption|]. intros x Hx Hc.
  apply in_app_or in Hx as [Hx|Hx]; [eapply covered_grows; [apply C1; assumption|exact G2]|apply C2; assumption].
Qed.

Lemma accounts_before rd a b c : grows a b -> accounts rd b c -> accounts rd a c.
Proof. intros G. apply (accounts_app [] rd), accounts_nil, G. Qed.

Lemma accounts_after rd a b c : accounts rd a b -> grows b c -> accounts rd a c.
Proof. intros H G. rewrite <- (app_nil_r rd). eapply accounts_app; [exact H|apply accounts_nil, G]. Qed.

Lemma fold_accounts (g : ids -> tnode -> ids) (rd : tnode -> list N) :
  (forall n s, accounts (rd n) s (g s n)) -> forall l s, accounts (flat_map rd l) s (fold_left g l s).
Proof.
  intros H. induction l as [|n r IH]; intros s; cbn [fold_left flat_map]; [apply accounts_nil, grows_refl|].
  eapply accounts_app; [apply H|apply IH].
Qed.

Lemma reads_accounts s names : accounts names s (reads s names).
Proof.
  unfold reads, upd_undeclared, accounts, covered. cbn [declared undeclared locally_declared argument_declared]. split.
  - repeat split; auto. intros x H. apply in_or_app. right. exact H.
  - intros x Hx Hc. destruct (memN x (declared s) || memN x (locally_declared s)) eqn:E.
    + apply orb_true_iff in E as [E|E]; apply memN_In in E; tauto.
    + right; right. apply in_or_app. left. apply filter_In. split; [exact Hx|].
      rewrite E. apply N.eqb_neq in Hc. rewrite Hc. reflexivity.
Qed.

Lemma check_declared_accounts s u d : accounts u s (check_declared s u d).
Proof. eapply accounts_after; [apply reads_accounts|apply grows_binds_local]. Qed.

Lemma visit_accounts : forall f own n s, accounts (reads_of f n) s (visit f own s n).
Proof.
  induction f as [|f IH]; intros own n s; [apply accounts_nil, grows_refl|].
  destruct n as [u d|u d|a u d|root name a sig_u body|named name a sig_u body|sig_u a body|body|u d inside]; cbn [visit reads_of].
  - (* TCheck *) apply check_declared_accounts.
  - (* TCode *) eapply accounts_after; [apply check_declared_accounts|apply grows_assigns].
  - (* TPage *) eapply accounts_before; [apply grows_args|apply check_declared_accounts].
  - (* TDef *) eapply accounts_before; [|apply reads_accounts]. destruct root; [apply grows_add_top|apply grows_add_closure].
  - (* TBlock: its signature, its name, its content *)
    eapply accounts_app; [apply reads_accounts|].
    eapply accounts_app; [|eapply accounts_before; [apply grows_args|apply fold_accounts; intros m st; apply IH]].
    destruct named; [|apply accounts_nil; destruct own; [apply grows_refl|apply grows_add_closure]].
    (* the block's name goes straight into undeclared *)
    split; [repeat split; cbn; auto|]. intros x [<-|[]] _. right; right; left; reflexivity.
  - (* TCall *) apply reads_accounts.
  - (* TNamespace *) apply accounts_nil, grows_refl.
  - (* TFor *) apply check_declared_accounts.
Qed.

Lemma minus_In x a b : In x (minus a b) <-> In x a /\ ~ In x b.
Proof. unfold minus. rewrite filter_In, negb_true_iff, memN_false. reflexivity. Qed.

Lemma to_write_In s x :
  In x (to_write s) <-> (In x (undeclared s) \/ In x (closuredefs s)) /\ ~ In x (argument_declared s) /\ ~ In x (locally_declared s).
Proof. unfold to_write. rewrite !minus_In, in_app_iff. apply and_assoc. Qed.

(* the disjuncts in the order of branch_init's ++ *)
Lemma to_write_or_bound s x :
  In x (to_write s) \/ In x (locally_declared s) \/ In x (argument_declared s) <->
  In x (closuredefs s) \/ In x (locally_declared s) \/ In x (argument_declared s) \/ In x (undeclared s).
Proof.
  rewrite to_write_In. split; [intros [([H|H] & _)|[H|H]]; auto|].
  destruct (in_dec N.eq_dec x (locally_declared s)) as [Hl|Hl]; [auto|].
  destruct (in_dec N.eq_dec x (argument_declared s)) as [Ha|Ha]; [auto|].
  intros [H|[H|[H|H]]]; auto.
Qed.

(* for every scope: every name read in it (other than context) is declared by an enclosing scope, or
   is assigned / an argument in this one, or gets a line at the top of the generated function *)
Theorem read_names_are_bound_or_hoisted nodes s x :
  In x (flat_map (reads_of idents_fuel) nodes) -> x <> n_context ->
  let s' := fold_left (visit_child idents_fuel) nodes s in
  In x (declared s') \/ In x (locally_declared s') \/ In x (argument_declared s') \/ In x (to_write s').
Proof.
  intros Hx Hc s'. destruct (fold_accounts _ _ (visit_accounts idents_fuel false) nodes s) as (_ & C).
  destruct (C x Hx Hc) as [H|[H|H]]; [auto|auto|].
  (* an undeclared name is hoisted, unless the scope binds it after all *)
  destruct (proj2 (to_write_or_bound s' x) (or_intror (or_intror (or_intror H)))) as [H'|[H'|H']]; auto.
Qed.

(* a nested scope takes as declared exactly what the enclosing function inherits, binds or hoists: so a
   name it does not hoist itself is a variable of an enclosing Python function *)
Theorem nested_scope_inherits_what_the_function_binds parent x :
  In x (declared (branch_init parent true)) <->
  In x (declared parent) \/ In x (to_write parent) \/ In x (locally_declared parent) \/ In x (argument_declared parent).
Proof.
  unfold branch_init. cbn [declared]. rewrite !in_app_iff, to_write_or_bound. reflexivity.
Qed.

(* a scope that is not nested (a top-level def, branched from the module's scope) does not inherit what
   its parent merely reads *)
Theorem toplevel_scope_does_not_inherit_reads parent x :
  In x (declared (branch_init parent false)) <->
  In x (declared parent) \/ In x (closuredefs parent) \/ In x (locally_declared parent) \/ In x (argument_declared parent).
Proof. unfold branch_init. cbn [declared]. rewrite app_nil_r, !in_app_iff. reflexivity. Qed.

(* the defs written inside a <%namespace> tag see the module-level names -- and nothing of the template's body *)
Theorem namespace_scope_inherits_module_names parent nested body :
  declared (branch parent nested (TNamespace body)) = declared parent.
Proof. (* the first conjunct of grows *) unfold branch. exact (proj1 (proj1 (fold_accounts _ _ (visit_accounts idents_fuel false) body _))). Qed.

(* ... and so does each def in it: it is branched from the namespace's scope, not nested *)
Theorem namespace_def_sees_module_names parent nested body x :
  In x (declared parent) -> In x (declared (branch_init (branch parent nested (TNamespace body)) false)).
Proof.
  intros H. unfold branch_init. cbn [declared]. rewrite namespace_scope_inherits_module_names.
  apply in_or_app. left. exact H.
Qed.
