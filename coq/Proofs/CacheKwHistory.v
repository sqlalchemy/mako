(* Proofs/CacheKwHistory.v -- the cache arguments handed to the backend over any history of renders and invalidations of
   one section: refinement of Cache._get_cache_kw (Model/Cache.v) to the statement's rule *)
From MakoV Require Import Lib.Str Model.Cache.
Open Scope N_scope.

(* one section's history of calls into the cache layer: renders, each bringing the section's cache arguments as evaluated by
   that render, and invalidate_*() calls, which bring none *)
Inductive kwop := KRender (kw : list (str * N)) | KInvalidate.

(* what the backend is handed at each call (the implementation: Cache._get_cache_kw) *)
Fixpoint kw_run (regions : list (str * list (str * N))) (d : str) (tmpl : list (str * N)) (ops : list kwop) : list (list (str * N)) :=
  match ops with
  | [] => []
  | KRender kw :: r => let (a, regions1) := get_cache_kw regions d true tmpl kw in a :: kw_run regions1 d tmpl r
  | KInvalidate :: r => let (a, regions1) := get_cache_kw regions d false tmpl [] in a :: kw_run regions1 d tmpl r
  end.

(* the statement: a render is handed the template's arguments overridden by its own; an invalidate addresses the backend with
   those of the section's last render, or with the template's alone when it has not rendered yet *)
Fixpoint kw_spec (last : option (list (str * N))) (tmpl : list (str * N)) (ops : list kwop) : list (list (str * N)) :=
  match ops with
  | [] => []
  | KRender kw :: r => update tmpl kw :: kw_spec (Some kw) tmpl r
  | KInvalidate :: r => update tmpl (match last with Some kw => kw | None => [] end) :: kw_spec last tmpl r
  end.

(* [regions] holds under [d] the arguments of the last render, merged into the template's, and nothing before one *)
Definition agrees (regions : list (str * list (str * N))) (d : str) (tmpl : list (str * N)) (last : option (list (str * N))) : Prop :=
  assocS d regions = match last with Some kw => Some (update tmpl kw) | None => None end.

Lemma kw_run_refines d tmpl : forall ops regions last, agrees regions d tmpl last -> kw_run regions d tmpl ops = kw_spec last tmpl ops.
Proof.
  induction ops as [|o r IH]; intros regions last H; [reflexivity|].
  destruct o as [kw|]; cbn [kw_run kw_spec].
  - unfold get_cache_kw at 1. f_equal. apply IH. unfold agrees. cbn [assocS]. rewrite str_eqb_refl. reflexivity.
  - unfold get_cache_kw at 1. unfold agrees in H. rewrite H. destruct last as [kw|]; f_equal; apply IH; exact H.
Qed.

Theorem cache_arguments_over_any_history d tmpl ops : kw_run [] d tmpl ops = kw_spec None tmpl ops.
Proof. apply kw_run_refines. reflexivity. Qed.

Example kw_history_nonvacuous :
  kw_run [] (s2l "render_d") [(s2l "type", 1)] [KInvalidate; KRender [(s2l "timeout", 5)]; KInvalidate; KRender [(s2l "timeout", 9)]; KInvalidate]
  = [[(s2l "type", 1)]; [(s2l "timeout", 5); (s2l "type", 1)]; [(s2l "timeout", 5); (s2l "type", 1)]; [(s2l "timeout", 9); (s2l "type", 1)]; [(s2l "timeout", 9); (s2l "type", 1)]].
Proof. vm_compute. reflexivity. Qed.
