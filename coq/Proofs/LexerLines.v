(* Proofs/LexerLines.v -- templates made of any number of text lines, double-percent lines and double-hash comment
   lines, in any order: what is written is the text with one percent sign of each double percent removed and the
   comment lines gone.  The composition of the turns of LexerEscapes.v, by induction. *)
From MakoV Require Import Lib.Str Gen.Unicode Gen.LexerOrder Gen.Parsetree Model.Lexer Proofs.LexerProofs Proofs.LexerEscapes.
Open Scope N_scope.

Inductive lkind := KPct | KHash (c : str).
Definition src_k (k : lkind) : str := match k with KPct => [cPCT; cPCT] | KHash c => cHASH :: cHASH :: c ++ [LF] end.
Definition out_k (k : lkind) : str := match k with KPct => [cPCT] | KHash _ => [] end.
Definition bol_after (k : lkind) : bool := match k with KPct => false | KHash _ => true end.
Definition k_ok (k : lkind) : bool := match k with KPct => true | KHash c => linetext c end.

(* [items] lists the constructs, each with the directive-free text in front of it; [doc] is the template they
   make up with the text [tail] after the last, [expected] what it should write *)
Fixpoint doc (items : list (str * lkind)) (tail : str) : str :=
  match items with [] => tail | (b, k) :: r => b ++ src_k k ++ doc r tail end.
Fixpoint expected (items : list (str * lkind)) (tail : str) : str :=
  match items with [] => tail | (b, k) :: r => b ++ out_k k ++ expected r tail end.

(* the side conditions as a boolean test.  The text in front of a construct: nothing (the construct opens the line the
   previous one ended), or directive-free text that ends in a line feed; at a line start it begins with a character
   that is not white space *)
Definition block_okb (bol : bool) (b : str) : bool :=
  match b with
  | [] => bol
  | x :: _ =>
      match rev b with
      | l :: ra => (l =? LF) && plain (rev ra) && (negb bol || negb (is_space x))
      | [] => false
      end
  end.

Fixpoint wfb (bol : bool) (items : list (str * lkind)) (tail : str) : bool :=
  match items with
  | [] => plain tail
  | (b, k) :: r => block_okb bol b && k_ok k && wfb (bol_after k) r tail
  end.

Definition block_ok (bol : bool) (b : str) : Prop :=
  (b = [] /\ bol = true) \/
  (exists a, b = a ++ [LF] /\ plain a = true /\ (bol = true -> match b with x :: _ => is_space x = false | [] => False end)).

Lemma block_okb_sound bol b : block_okb bol b = true -> block_ok bol b.
Proof.
  unfold block_okb, block_ok. destruct b as [|x b']; [intros ->; left; auto|].
  destruct (rev (x :: b')) as [|l ra] eqn:E; [discriminate|]. intros H.
  apply andb_prop in H as [H H3]. apply andb_prop in H as [H1 H2]. apply N.eqb_eq in H1. subst l.
  right. exists (rev ra). split.
  - rewrite <- (rev_involutive (x :: b')), E. reflexivity.
  - split; [exact H2|]. intros ->. apply negb_true_iff, H3.
Qed.

(* what follows a double percent does not begin with a percent sign *)
Lemma wfb_head_no_pct items tail : wfb false items tail = true -> no_pct (doc items tail).
Proof.
  destruct items as [|[b k] r]; cbn [wfb doc]; [apply plain_no_pct|]. intros H.
  apply andb_prop in H as [H _]. apply andb_prop in H as [H _].
  apply block_okb_sound in H as [[_ [=]]|(a & -> & Ha & _)].
  destruct a as [|c a]; [reflexivity|]. apply plain_cons in Ha as [Hc _]. exact (plainc_neq c cPCT Hc eq_refl).
Qed.

Lemma construct_turn st k rest :
  at_bol (cur st) = true -> c_rest (cur st) = src_k k ++ rest -> k_ok k = true -> (k = KPct -> no_pct rest) ->
  exists st', turn st (out_k k) rest st' /\ at_bol (cur st') = bol_after k.
Proof.
  intros Hb Er Hk Hnp. destruct k as [|c].
  - exact (percent_turn st rest Hb Er (Hnp eq_refl)).
  - apply (hash_turn st c (LF :: rest) [LF] rest Hb); [|exact Hk|reflexivity].
    rewrite Er. cbn [src_k app]. rewrite <- app_assoc. reflexivity.
Qed.

Lemma stop_at_construct k rest : text_stop_here (Some LF) (src_k k ++ rest) = true.
Proof. destruct k; reflexivity. Qed.

Lemma lines_loop : forall items tail bol st,
  wfb bol items tail = true -> c_rest (cur st) = doc items tail -> at_bol (cur st) = bol ->
  writes st (expected items tail).
Proof.
  induction items as [|[b k] r IH]; intros tail bol st Hwf Er Hb; cbn [wfb doc expected] in *.
  - rewrite <- Er in *. apply writes_plain, Hwf.
  - apply andb_prop in Hwf as [Hwf Hr]. apply andb_prop in Hwf as [Hblk Hk].
    assert (Hnp : k = KPct -> no_pct (doc r tail)) by (intros ->; apply wfb_head_no_pct, Hr).
    apply block_okb_sound in Hblk as [[-> ->]|(a & -> & Ha & Hhead)].
    + (* the construct opens the line *)
      destruct (construct_turn st k (doc r tail) Hb Er Hk Hnp) as (st' & T & Hb').
      exact (turn_writes _ T (IH tail _ st' Hr (turn_rest T) Hb')).
    + (* text up to the end of a line, then the construct *)
      destruct (line_turn st a (src_k k ++ doc r tail) Er Ha (stop_at_construct k _)) as (st1 & T1 & Hb1).
      { destruct bol; [right|left; exact Hb]. specialize (Hhead eq_refl). rewrite Er.
        destruct a as [|x a]; [discriminate Hhead|]. apply plain_cons in Ha as [Hc _]. apply text_ahead_plainc; assumption. }
      destruct (construct_turn st1 k (doc r tail) Hb1 (turn_rest T1) Hk Hnp) as (st2 & T2 & Hb2).
      exact (turn_writes _ T1 (turn_writes _ T2 (IH tail _ st2 Hr (turn_rest T2) Hb2))).
Qed.

Theorem lines_written_exactly items tail :
  wfb true items tail = true -> scan_coding (doc items tail) = None ->
  output (doc items tail) = expected items tail /\ snd (lex (doc items tail)) = LexOk.
Proof. intros Hwf Hcod. apply (output_writes _ _ Hcod), (lines_loop items tail true); auto. Qed.

(* the magic-comment hypothesis holds whenever the template does not begin with a hash *)
Lemma no_coding_unless_hash s : (match s with c :: _ => (c =? cHASH) = false | [] => True end) -> scan_coding s = None.
Proof. destruct s as [|c r]; [reflexivity|]. apply scan_coding_head. Qed.

Example lines_nonvacuous :
  let items := [ (s2l "Dear reader," ++ [LF], KPct); (s2l " of the cases" ++ [LF] ++ s2l "second line" ++ [LF], KHash (s2l " internal note ${x} <%text>"));
                 ([], KHash []); ([], KPct); (s2l " done!" ++ [LF], KPct) ] in
  let tail := s2l " end" ++ [LF] in
  wfb true items tail = true /\ scan_coding (doc items tail) = None /\
  doc items tail = s2l "Dear reader," ++ [LF] ++ s2l "%% of the cases" ++ [LF] ++ s2l "second line" ++ [LF] ++ s2l "## internal note ${x} <%text>" ++ [LF]
                   ++ s2l "##" ++ [LF] ++ s2l "%% done!" ++ [LF] ++ s2l "%% end" ++ [LF] /\
  output (doc items tail) = s2l "Dear reader," ++ [LF] ++ s2l "% of the cases" ++ [LF] ++ s2l "second line" ++ [LF] ++ s2l "% done!" ++ [LF] ++ s2l "% end" ++ [LF].
Proof. vm_compute. repeat split; reflexivity. Qed.
