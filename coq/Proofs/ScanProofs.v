(* Proofs/ScanProofs.v -- C02: the expression scanner (parse_until_text with nesting) is never cut
   short by "|" or "}" inside brackets, nor by anything inside string literals and comments. *)
From MakoV Require Import Lib.Str Gen.Unicode Gen.LexerOrder Gen.Parsetree Model.Lexer Proofs.LexerProofs.
Open Scope N_scope.

Definition estops : list str := [[cPIPE]; [cRBRACE]].
Definition is_stopc (c : N) : bool := (c =? cPIPE) || (c =? cRBRACE).
Definition is_special (c : N) : bool := (c =? cDQ) || (c =? cSQ) || (c =? cHASH).

Inductive seg :=
| SRun (t : str)          (* ordinary characters: no quote, no hash *)
| SLit (t : str)          (* a string literal *)
| SCom (t : str).         (* a comment through its newline *)

Definition seg_text (g : seg) : str := match g with SRun t | SLit t | SCom t => t end.
Definition segs_text (l : list seg) : str := flat_map seg_text l.

(* a literal the scanner recognises as one unit wherever it stands *)
Definition self_delimiting (t : str) : Prop := t <> [] /\ forall rest, scan_string (t ++ rest) = Some (t, rest).
Definition comment_shape (t : str) : Prop :=
  exists body, t = cHASH :: body ++ [LF] /\ forallb (fun x => negb (x =? LF)) body = true.

(* every "|" or "}" of a run stands at a position where some bracket count is positive; the
   counts are those of the runs read so far (literals and comments do not count) *)
Fixpoint run_ok (lv : levels) (t : str) : Prop :=
  match t with
  | [] => True
  | c :: r => is_special c = false /\ (is_stopc c = true -> nested lv = true) /\ run_ok (bump lv [c]) r
  end.

Fixpoint segs_ok (lv : levels) (l : list seg) : Prop :=
  match l with
  | [] => nested lv = false
  | SRun t :: r => run_ok lv t /\ segs_ok (bump lv t) r
  | SLit t :: r => self_delimiting t /\ segs_ok lv r
  | SCom t :: r => comment_shape t /\ segs_ok lv r
  end.

Lemma scan_string_nonquote c s : (c =? cDQ) = false -> (c =? cSQ) = false -> scan_string (c :: s) = None.
Proof.
  intros H1 H2. unfold scan_string, try_delim. cbn [strip_prefix]. rewrite (N.eqb_sym cDQ c), (N.eqb_sym cSQ c), H1, H2. reflexivity.
Qed.

Lemma nonspecial_scans c s : is_special c = false -> scan_hash_comment (c :: s) = None /\ scan_string (c :: s) = None.
Proof.
  unfold is_special. intros H. apply orb_false_elim in H as [H Hh]. apply orb_false_elim in H as [Hd Hq].
  split; [unfold scan_hash_comment; rewrite Hh; reflexivity|apply scan_string_nonquote; assumption].
Qed.

Lemma first_stop_char c s : first_stop estops (c :: s) = if is_stopc c then Some ([c], s) else None.
Proof.
  unfold estops, is_stopc. cbn [first_stop strip_prefix]. rewrite (N.eqb_sym cPIPE c), (N.eqb_sym cRBRACE c).
  destruct (N.eqb_spec c cPIPE) as [->|_]; [reflexivity|]. destruct (N.eqb_spec c cRBRACE) as [->|_]; reflexivity.
Qed.

Lemma stopc_nonspecial c : is_stopc c = true -> is_special c = false.
Proof. unfold is_stopc. intros H. apply orb_prop in H as [H|H]; apply N.eqb_eq in H; subst c; reflexivity. Qed.

(* a character at which a run ends *)
Definition boundc (c : N) : bool := is_special c || is_stopc c.

Lemma scan_run_cons c r : scan_run estops (c :: r) =
  if boundc c then Some ([], c :: r) else match scan_run estops r with Some (a, b) => Some (c :: a, b) | None => None end.
Proof. cbn [scan_run]. rewrite first_stop_char. unfold boundc, is_special. destruct (is_stopc c); reflexivity. Qed.

Lemma run_ok_special lv t : run_ok lv t -> forallb (fun c => negb (is_special c)) t = true.
Proof.
  revert lv. induction t as [|c r IH]; intros lv H; [reflexivity|]. cbn [run_ok forallb] in *.
  destruct H as [H1 [_ H3]]. rewrite H1, (IH _ H3). reflexivity.
Qed.

(* the loop of parse_until_text with the fuel it needs *)
Definition put (acc s : str) (lv : levels) : option (str * str * str) := put_loop (S (length s)) true estops acc s lv.

Lemma estops_nonempty t : In t estops -> t <> [].
Proof. intros [<-|[<-|[]]]; discriminate. Qed.

Lemma put_enough fuel acc s lv : (length s < fuel)%nat -> put_loop fuel true estops acc s lv = put acc s lv.
Proof. intros H. apply put_loop_fuel; [exact estops_nonempty|exact H|lia]. Qed.

Lemma put_unfold acc s lv : put acc s lv =
  match put_step true estops acc s lv with PMore a s' l => put a s' l | PDone r => r end.
Proof.
  unfold put at 1. rewrite put_loop_S. pose proof (put_step_spec true estops acc s lv) as H.
  destruct (put_step true estops acc s lv) as [a s' l|r]; [|reflexivity].
  destruct H as (c & Es & _ & Hc). exact (put_enough _ _ _ _ (app_shorter c s' s (Hc estops_nonempty) Es)).
Qed.

Lemma bump_app lv a b : bump (bump lv a) b = bump lv (a ++ b).
Proof.
  unfold bump. cbn [l_brace l_paren l_brack fst snd]. rewrite !countN_app, !N.add_assoc. reflexivity.
Qed.

Lemma bump_nil lv : bump lv [] = lv.
Proof. destruct lv as [[a b] [c d] [e f]]. unfold bump. cbn. rewrite !N.add_0_r. reflexivity. Qed.

(* at a stop character: inside brackets it joins the text, outside the scan ends *)
Lemma put_stop c s acc lv : is_stopc c = true ->
  put acc (c :: s) lv = if nested lv then put (acc ++ [c]) s (bump lv [c]) else Some (acc, [c], s).
Proof.
  intros Hc. rewrite put_unfold. unfold put_step. destruct (nonspecial_scans c s (stopc_nonspecial c Hc)) as [-> ->].
  rewrite first_stop_char, Hc. destruct (nested lv); reflexivity.
Qed.

(* at any other character that opens no literal and no comment: a run of the scanner begins *)
Lemma put_ordinary c s acc lv : boundc c = false ->
  put acc (c :: s) lv = match scan_run estops s with Some (a, b) => put (acc ++ c :: a) b (bump lv (c :: a)) | None => None end.
Proof.
  intros Hc. rewrite put_unfold. unfold put_step. rewrite scan_run_cons, Hc. apply orb_false_elim in Hc as [Hsp Hs].
  destruct (nonspecial_scans c s Hsp) as [-> ->]. rewrite first_stop_char, Hs.
  destruct (scan_run estops s) as [[a b]|]; reflexivity.
Qed.

(* a character that a run may hold is read as if alone, although the scanner takes all that stand between two stop
   characters at once: what it reads on after [c] is what it reads from the next character on *)
Lemma put_char c s acc lv : is_special c = false -> (is_stopc c = true -> nested lv = true) ->
  put acc (c :: s) lv = put (acc ++ [c]) s (bump lv [c]).
Proof.
  intros Hsp Hst. destruct (is_stopc c) eqn:Hs; [rewrite (put_stop c s acc lv Hs), (Hst eq_refl); reflexivity|].
  rewrite put_ordinary by (unfold boundc; rewrite Hsp, Hs; reflexivity).
  destruct s as [|d s']; [reflexivity|]. rewrite scan_run_cons. destruct (boundc d) eqn:Hd; [reflexivity|].
  rewrite (put_ordinary d s' _ _ Hd). destruct (scan_run estops s') as [[a b]|]; [|reflexivity].
  rewrite bump_app, <- app_assoc. reflexivity.
Qed.

Lemma put_run : forall t acc lv tail, run_ok lv t -> put acc (t ++ tail) lv = put (acc ++ t) tail (bump lv t).
Proof.
  induction t as [|c t IH]; intros acc lv tail Hok; [rewrite app_nil_r, bump_nil; reflexivity|].
  destruct Hok as (Hsp & Hst & Hok). cbn [app].
  rewrite (put_char c _ acc lv Hsp Hst), (IH _ _ tail Hok), bump_app, <- app_assoc. reflexivity.
Qed.

(* what opens a string literal opens no comment *)
Lemma scan_string_no_comment s a b : scan_string s = Some (a, b) -> scan_hash_comment s = None.
Proof.
  destruct s as [|c r]; [discriminate|]. intros H. cbn [scan_hash_comment]. destruct (N.eqb_spec c cHASH) as [->|_]; [|reflexivity].
  rewrite (scan_string_nonquote cHASH r eq_refl eq_refl) in H. discriminate.
Qed.

(* a comment is recognised as one unit wherever it stands, like a literal that is [self_delimiting] *)
Lemma comment_scanned t rest : comment_shape t -> scan_hash_comment (t ++ rest) = Some (t, rest).
Proof.
  intros [body [-> Hbody]]. cbn [app scan_hash_comment]. rewrite N.eqb_refl, <- app_assoc.
  change ([LF] ++ rest) with (LF :: rest). rewrite (span_app _ body LF rest Hbody eq_refl). reflexivity.
Qed.

(* the expression scanner returns the whole expression: "|" and "}" inside brackets, and anything
   inside string literals and comments, never cut it short -- for segment lists of any length,
   brackets nested to any depth; it ends at the first stop character [x] outside them *)
Theorem put_segs x : is_stopc x = true -> forall l acc lv r, segs_ok lv l ->
  put acc (segs_text l ++ x :: r) lv = Some (acc ++ segs_text l, [x], r).
Proof.
  intros Hx. induction l as [|g l IH]; intros acc lv r Hok.
  - cbn [segs_text flat_map app segs_ok] in *. rewrite (put_stop x r acc lv Hx), Hok, app_nil_r. reflexivity.
  - change (segs_text (g :: l)) with (seg_text g ++ segs_text l). rewrite <- app_assoc.
    destruct g as [t|t|t]; cbn [segs_ok seg_text] in *; destruct Hok as [Hg Hrest].
    + rewrite (put_run t acc lv _ Hg), (IH _ _ r Hrest), app_assoc. reflexivity.
    + (* a string literal: skipped as a unit *)
      destruct Hg as [_ Hsd]. pose proof (Hsd (segs_text l ++ x :: r)) as E.
      rewrite put_unfold. unfold put_step. rewrite (scan_string_no_comment _ _ _ E), E, (IH _ _ r Hrest), app_assoc. reflexivity.
    + (* a comment through its newline *)
      rewrite put_unfold. unfold put_step. rewrite (comment_scanned t _ Hg), (IH _ _ r Hrest), app_assoc. reflexivity.
Qed.

(* no two adjacent runs: segment with maximal runs *)
Fixpoint no_adjacent_runs (l : list seg) : Prop :=
  match l with
  | SRun _ :: ((SRun _ :: _) as r) => False
  | _ :: r => no_adjacent_runs r
  | [] => True
  end.

(* the second hypothesis is not used: adjacent runs are read like their concatenation *)
Theorem scan_balanced l r :
  segs_ok lv0 l -> no_adjacent_runs l ->
  parse_until true estops (segs_text l ++ cRBRACE :: r) = Some (segs_text l, [cRBRACE], r).
Proof. intros H _. exact (put_segs cRBRACE eq_refl l [] lv0 r H). (* parse_until true estops s unfolds to put [] s lv0 *) Qed.

Lemma simple_char c : negb (c =? cDQ) && negb (c =? cSQ) && negb (c =? cBSLASH) = true ->
  (c =? cDQ) = false /\ (c =? cSQ) = false /\ (c =? cBSLASH) = false.
Proof.
  intros H. apply andb_true_iff in H as [H H3]. apply andb_true_iff in H as [H1 H2].
  apply negb_true_iff in H1, H2, H3. auto.
Qed.

Lemma scan_str_body_simple q rest : q = cDQ \/ q = cSQ -> forall b,
  forallb (fun c => negb (c =? cDQ) && negb (c =? cSQ) && negb (c =? cBSLASH)) b = true ->
  scan_str_body [q] (b ++ q :: rest) = Some (b ++ [q], rest).
Proof.
  intros Hq. induction b as [|c b IH]; intros Hb; cbn [app scan_str_body strip_prefix].
  - rewrite N.eqb_refl. reflexivity.
  - apply forallb_cons in Hb as [Hc Hb]. apply simple_char in Hc as (Hc1 & Hc2 & Hbs).
    assert (Hqc : (q =? c) = false) by (destruct Hq as [-> | ->]; rewrite N.eqb_sym; assumption).
    rewrite Hqc, Hbs, (IH Hb). reflexivity.
Qed.

(* simple literals are self-delimiting: a quote, characters without quote or backslash, the quote; not the empty
   literal, which in front of a third quote may be read as the opening of a triple-quoted one *)
Lemma simple_literal_self_delimiting q body :
  (q = cDQ \/ q = cSQ) -> body <> [] ->
  forallb (fun c => negb (c =? cDQ) && negb (c =? cSQ) && negb (c =? cBSLASH)) body = true ->
  self_delimiting (q :: body ++ [q]).
Proof.
  intros Hq Hne Hbody. split; [discriminate|]. intros rest.
  pose proof (scan_str_body_simple q rest Hq body Hbody) as Hscan.
  destruct body as [|b0 body']; [congruence|].
  apply forallb_cons in Hbody as [Hb0 _]. apply simple_char in Hb0 as (Hb1 & Hb2 & _).
  replace ((q :: (b0 :: body') ++ [q]) ++ rest) with (q :: (b0 :: body') ++ q :: rest) by (cbn [app]; rewrite <- app_assoc; reflexivity).
  (* the triple delimiters fail at the second character or the first, the single quote succeeds *)
  unfold scan_string, try_delim. destruct Hq as [-> | ->]; cbn [strip_prefix app] in *.
  - rewrite N.eqb_refl, (N.eqb_sym cDQ b0), Hb1. change (cSQ =? cDQ) with false. cbv iota. rewrite Hscan. reflexivity.
  - change (cDQ =? cSQ) with false. cbv iota. rewrite N.eqb_refl, (N.eqb_sym cSQ b0), Hb2, Hscan. reflexivity.
Qed.
