(* Proofs/LoopProofs.v -- C03, the loop context: every construct returns the loop stack it was given, by
   induction on the fuel through run_list and iterate; a loop that only observes sees index i of n at
   iteration i; the fields are arithmetic of index and length *)
From Coq Require Import ZArith.
From MakoV Require Import Lib.Str Model.Loop.
Open Scope N_scope.

Definition stack_of (r : result) : lstack := fst (fst r).

Lemma stack_of_inv r s : stack_of r = s -> exists o t, r = (s, o, t).
Proof. destruct r as [[s1 o] t]. intros <-. exists o, t. reflexivity. Qed.

Section Restore.
Variable ex : prog -> lstack -> result.
Hypothesis ex_keeps : forall q s, stack_of (ex q s) = s.

Lemma run_list_keeps l : forall s, stack_of (run_list ex l s) = s.
Proof.
  induction l as [|q r IH]; intros s; [reflexivity|]. cbn [run_list].
  destruct (stack_of_inv _ _ (ex_keeps q s)) as (o1 & t1 & ->). destruct o1; try reflexivity.
  destruct (stack_of_inv _ _ (IH s)) as (o2 & t2 & ->). reflexivity.
Qed.

Lemma iterate_keeps_unmanaged body : forall k s, stack_of (iterate ex body k s false) = s.
Proof.
  induction k as [|k IH]; intros s; [reflexivity|]. cbn [iterate].
  destruct (stack_of_inv _ _ (run_list_keeps body s)) as (o1 & t1 & ->). destruct o1; try reflexivity.
  destruct (stack_of_inv _ _ (IH s)) as (o2 & t2 & ->). reflexivity.
Qed.

(* under __M_loop, iterating changes at most the index of the context on top *)
Lemma iterate_keeps_managed body : forall k s, tl (stack_of (iterate ex body k s true)) = tl s.
Proof.
  induction k as [|k IH]; intros s; [reflexivity|]. cbn [iterate].
  destruct (stack_of_inv _ _ (run_list_keeps body s)) as (o1 & t1 & ->). destruct o1; try reflexivity.
  specialize (IH (advance s)). destruct (iterate ex body k (advance s) true) as [[s2 o2] t2].
  cbn [stack_of fst] in *. rewrite IH. destruct s; reflexivity.
Qed.
End Restore.

(* for every program, every answer of the loop detector and every stack: when the construct ends --
   by exhaustion, break, return or an exception -- the loop stack is the one it started with *)
Theorem loop_restored rl : forall fuel p s, stack_of (exec rl fuel p s) = s.
Proof.
  induction fuel as [|f IH]; intros p s; [reflexivity|]. destruct p; cbn [exec]; try reflexivity.
  - (* PObserve *) destruct s; reflexivity.
  - (* PFor *) destruct (rl (PFor n body)); [|apply iterate_keeps_unmanaged; exact IH].
    pose proof (iterate_keeps_managed (exec rl f) IH body n (enter (N.of_nat n) s)) as H.
    destruct (iterate (exec rl f) body n (enter (N.of_nat n) s) true) as [[s1 o1] t1]. exact H.
  - (* PTry *) destruct (stack_of_inv _ _ (run_list_keeps (exec rl f) IH body s)) as (o1 & t1 & ->). destruct o1; try reflexivity.
    destruct (stack_of_inv _ _ (run_list_keeps (exec rl f) IH handler s)) as (o2 & t2 & ->). reflexivity.
Qed.

(* a loop whose body only observes: iteration i (from 0) sees index i of n, at depth one more than
   the enclosing loops, with the enclosing loop as parent *)
Fixpoint expected_obs (n : N) (depth : nat) (parent : option N) (i : N) (k : nat) : list obs :=
  match k with
  | O => []
  | S k' => ({| l_index := i; l_len := n |}, depth, parent) :: expected_obs n depth parent (i + 1) k'
  end.

Lemma iterate_observe (ex : prog -> lstack -> result) n rest :
  (forall c r, ex PObserve (c :: r) = (c :: r, ONormal, [(c, length (c :: r), option_map l_index (f_parent (c :: r)))])) ->
  forall k i,
  iterate ex [PObserve] k ({| l_index := i; l_len := n |} :: rest) true =
    ({| l_index := i + N.of_nat k; l_len := n |} :: rest, ONormal,
     expected_obs n (S (length rest)) (option_map l_index (hd_error rest)) i k).
Proof.
  intros Hobs. induction k as [|k IH]; intros i.
  - cbn [iterate expected_obs N.of_nat]. rewrite N.add_0_r. reflexivity.
  - cbn [iterate run_list]. rewrite Hobs. cbn [advance l_index l_len app]. rewrite IH.
    replace (i + 1 + N.of_nat k) with (i + N.of_nat (S k)) by lia.
    cbn [expected_obs length]. destruct rest; reflexivity.
Qed.

Theorem loop_fields rl f n s :
  rl (PFor n [PObserve]) = true ->
  exec rl (S (S f)) (PFor n [PObserve]) s =
    (s, ONormal, expected_obs (N.of_nat n) (S (length s)) (option_map l_index (hd_error s)) 0 n).
Proof.
  (* the inner fuel gets a name so that cbn [exec] unfolds the PFor step only, not the executor handed to iterate *)
  intros Hrl. remember (S f) as g eqn:Eg. cbn [exec]. rewrite Hrl. unfold enter.
  rewrite iterate_observe by (intros c r; subst g; reflexivity). reflexivity.
Qed.

Lemma odd_mod2 i : negb (i mod 2 =? 0) = true <-> i mod 2 = 1.
Proof.
  rewrite negb_true_iff, N.eqb_neq. pose proof (N.mod_lt i 2 ltac:(discriminate)) as H.
  revert H. generalize (i mod 2). intros r H. lia.
Qed.

(* the fields as functions of the iteration number and the length *)
Theorem fields_of_iteration i n : i < n ->
  let c := {| l_index := i; l_len := n |} in
  (f_first c = true <-> i = 0) /\ (f_last c = true <-> i = n - 1) /\
  (f_odd c = true <-> i mod 2 = 1) /\ f_even c = negb (f_odd c) /\
  f_reverse_index c = Z.of_N (n - i - 1) /\
  (forall A (vs : list A), vs <> [] -> f_cycle c vs = nth_error vs (N.to_nat (i mod N.of_nat (length vs)))).
Proof.
  intros Hi c. unfold c, f_first, f_last, f_odd, f_even, f_reverse_index, f_cycle. cbn [l_index l_len]. repeat split.
  - apply N.eqb_eq. - apply N.eqb_eq.
  - intros H. apply Z.eqb_eq in H. lia.
  - intros H. apply Z.eqb_eq. lia.
  - apply odd_mod2. - apply odd_mod2.
  - lia.
  - intros A vs Hv. destruct vs; [congruence|reflexivity].
Qed.
