(* Proofs/PathsModule.v -- C09: generated module files lie beneath module_directory; plain names joined below a
   directory are within it, and the checked URI with its extension is such a join *)
From Coq Require Import PeanoNat.
From MakoV Require Import Lib.Str Model.Paths Proofs.PathsProofs.
Open Scope N_scope.

Definition py : str := s2l ".py".

Lemma iss_unfold base full fuel :
  is_suffix_stack base full fuel =
  if Nat.eqb (length full) (length base) then
    (if forallb (fun ab => str_eqb (fst ab) (snd ab)) (combine full base) then Some [] else None)
  else match fuel, full with
       | S f, x :: r => option_map (cons x) (is_suffix_stack base r f)
       | _, _ => None
       end.
Proof. destruct full; destruct fuel; reflexivity. Qed.

Lemma is_suffix_stack_app base : forall segs fuel, (length segs <= fuel)%nat ->
  is_suffix_stack base (segs ++ base) fuel = Some segs.
Proof.
  assert (Hrefl : forall l : list str, forallb (fun ab => str_eqb (fst ab) (snd ab)) (combine l l) = true).
  { induction l as [|x l IH]; [reflexivity|]. cbn [combine forallb fst snd]. rewrite str_eqb_refl, IH. reflexivity. }
  induction segs as [|x r IH]; intros fuel Hf.
  - cbn [app]. rewrite iss_unfold, Nat.eqb_refl, Hrefl. reflexivity.
  - cbn [app length] in *. destruct fuel as [|f]; [lia|]. rewrite iss_unfold.
    assert (E : Nat.eqb (length (x :: r ++ base)) (length base) = false).
    { apply Nat.eqb_neq. cbn [length]. rewrite app_length. lia. }
    rewrite E, IH by lia. reflexivity.
Qed.

Lemma within_intro d p segs :
  is_abs p = is_abs d -> norm_stack p = segs ++ norm_stack d -> Forall plainP segs -> within d p = true.
Proof.
  intros Ha Hs Hp. unfold within. rewrite Ha, Bool.eqb_reflx, Hs.
  rewrite is_suffix_stack_app by (rewrite app_length; lia).
  apply forallb_forall. intros c Hc. apply plain_spec. rewrite Forall_forall in Hp. exact (Hp c Hc).
Qed.

Lemma split_single sep x : ~ In sep x -> split_on sep x = [x].
Proof.
  induction x as [|c r IH]; intros H; [reflexivity|]. cbn [split_on].
  destruct (N.eqb_spec c sep) as [->|_]; [exfalso; apply H; left; reflexivity|].
  rewrite IH; [reflexivity|]. intros Hin. apply H. right. exact Hin.
Qed.

(* str.split is the inverse of str.join when no element holds the separator *)
Lemma split_join sep : forall l, l <> [] -> Forall (fun c => ~ In sep c) l -> split_on sep (join_sep sep l) = l.
Proof.
  induction l as [|x l IH]; intros Hne Hl; [congruence|]. inversion Hl as [|? ? Hx Hr]; subst.
  destruct l as [|y l']; cbn [join_sep].
  - apply split_single. exact Hx.
  - rewrite split_app_sep, (split_single sep x Hx). cbn [app]. f_equal. apply IH; [discriminate|exact Hr].
Qed.

Lemma run_plain a : forall comps S, Forall plainP comps -> run_norm a S comps = rev comps ++ S.
Proof.
  unfold run_norm. induction comps as [|c comps IH]; intros S H; [reflexivity|]. inversion H; subst.
  cbn [fold_left rev]. rewrite norm_step_plain by assumption. rewrite IH by assumption. rewrite <- app_assoc. reflexivity.
Qed.

Theorem within_join_plain d comps :
  comps <> [] -> Forall plainP comps -> within d (join d (join_sep SLASH comps)) = true.
Proof.
  intros Hne Hp.
  assert (Hnoslash : Forall (fun c => ~ In SLASH c) comps) by (revert Hp; apply Forall_impl; intros c H; apply H).
  assert (Hrel : is_abs (join_sep SLASH comps) = false).
  { destruct comps as [|c0 cs]; [congruence|]. inversion Hp as [|? ? (H1 & _ & _ & H4) _]; subst.
    destruct (join_sep_head SLASH c0 cs) as [tl ->]. destruct c0 as [|x c0']; [congruence|]. cbn [app is_abs].
    apply N.eqb_neq. intros ->. apply H4. left. reflexivity. }
  apply (within_intro d _ (rev comps)); [apply is_abs_join; exact Hrel| |apply Forall_rev; exact Hp].
  rewrite (norm_stack_join d _ Hrel), (split_join SLASH comps Hne Hnoslash). apply run_plain. exact Hp.
Qed.

Lemma join_sep_app_last sep : forall l x y, join_sep sep (l ++ [x]) ++ y = join_sep sep (l ++ [x ++ y]).
Proof.
  induction l as [|a l IH]; intros x y; [reflexivity|].
  destruct l as [|b l']; cbn [app join_sep] in *.
  - rewrite <- app_assoc. reflexivity.
  - rewrite <- app_assoc. cbn [app]. f_equal. f_equal. exact (IH x y).
Qed.

Lemma plainP_py c : c <> [] -> ~ In SLASH c -> plainP (c ++ py).
Proof.
  intros Hne Hs. destruct c as [|x c']; [congruence|]. repeat split.
  - discriminate.
  - unfold dot. destruct c'; discriminate.
  - unfold dotdot, py. destruct c' as [|y [|z c'']]; cbn; discriminate.
  - intros Hin. apply in_app_or in Hin as [Hin|Hin]; [exact (Hs Hin)|]. apply memN_In in Hin. discriminate Hin.
Qed.

(* the relative part of the module path: plain names, the last one carrying the extension *)
Lemma u_norm_py uri : template_check uri = true ->
  exists comps, comps <> [] /\ Forall plainP comps /\ u_norm uri ++ py = join_sep SLASH comps.
Proof.
  intros Hck. destruct (checked_uri uri Hck) as (P & HP & _ & ->). destruct P as [|top rest].
  - exists [dot ++ py]. split; [discriminate|]. split; [|reflexivity].
    constructor; [|constructor]. apply plain_spec. reflexivity.
  - exists (rev rest ++ [top ++ py]). split; [destruct (rev rest); discriminate|]. split.
    + inversion HP as [|? ? (H1 & _ & _ & H4) Hrest]; subst.
      apply Forall_app. split; [apply Forall_rev; exact Hrest|]. constructor; [|constructor]. apply plainP_py; assumption.
    + cbn [rev]. apply join_sep_app_last.
Qed.

Theorem module_path_contained md uri :
  template_check uri = true -> within (normpath md) (module_path md uri) = true.
Proof.
  intros Hck. destruct (u_norm_py uri Hck) as (comps & Hne & Hp & E).
  unfold module_path. fold py. rewrite E. apply within_join_plain; assumption.
Qed.
