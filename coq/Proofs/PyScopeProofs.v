(* Proofs/PyScopeProofs.v -- C19, FindIdentifiers on blocks without nested scopes: [tight] bounds what such a block
   declares and demands; that it demands what it needs comes from PyScopeGeneral.  Then the programs that refute both
   directions in general *)
From MakoV Require Import Lib.Str Model.PyScope Proofs.PyScopeGeneral.
Open Scope N_scope.

(* the fragment without nested scopes: names, operators, assignments, for / if / try, imports *)
Fixpoint flat_expr (fuel : nat) (e : expr) : bool :=
  match fuel with
  | O => false
  | S f => match e with
           | EName _ | EConst => true
           | EOp l => forallb (flat_expr f) l
           | _ => false
           end
  end.

Fixpoint flat_stmts (fuel : nat) (l : list stmt) : bool :=
  match fuel with
  | O => false
  | S f =>
      forallb (fun st =>
        match st with
        | SExpr e => flat_expr f e
        | SAssign _ e => flat_expr f e
        | SFor _ it b o => flat_expr f it && flat_stmts f b && flat_stmts f o
        | SIf t b o => flat_expr f t && flat_stmts f b && flat_stmts f o
        | SImport _ => true
        | SDef _ _ _ _ => false
        | STryExcept b ty _ h => flat_stmts f b && (match ty with Some t => flat_expr f t | None => true end) && flat_stmts f h
        end) l
  end.

(* the names bound in the scope the analysis is in *)
Definition bound (s : fstate) : list N := if in_function s then locals s else declared s.

(* on the fragment, code that reads the names fa and binds the names ba binds and demands nothing else *)
Definition tight (fa ba : list N) (s s' : fstate) : Prop :=
  (forall y, In y (bound s') <-> In y (bound s) \/ In y ba) /\
  (forall y, In y (undeclared s') -> In y (undeclared s) \/ In y fa).

Lemma tight_id s : tight [] [] s s.
Proof. unfold tight. cbn [In]. intuition. Qed.

Lemma tight_seq fa ba fb bb s s1 s2 : tight fa ba s s1 -> tight fb bb s1 s2 -> tight (fa ++ fb) (ba ++ bb) s s2.
Proof.
  intros (B1 & U1) (B2 & U2). split; intros y; rewrite in_app_iff.
  - rewrite B2, B1. apply or_assoc.
  - intros H. apply U2 in H as [H|H]; [apply U1 in H|]; tauto.
Qed.

Lemma tight_fold {A} (g : fstate -> A -> fstate) (fr bd : A -> list N) (ok : A -> bool) :
  (forall a s, ok a = true -> tight (fr a) (bd a) s (g s a)) ->
  forall l s, forallb ok l = true -> tight (flat_map fr l) (flat_map bd l) s (fold_left g l s).
Proof.
  intros H. induction l as [|a r IH]; intros s Hl; cbn [flat_map fold_left]; [apply tight_id|].
  apply forallb_cons in Hl as [Ha Hr]. eapply tight_seq; [apply H, Ha|apply IH, Hr].
Qed.

Lemma tight_read s x : tight [x] [] s (read_name s x).
Proof.
  unfold tight, read_name, bound. destruct (memN x (declared s) || memN x (locals s)); cbn; intuition.
Qed.

Lemma tight_adds t s : tight [] t s (fold_left add_declared t s).
Proof.
  rewrite add_declared_fold. unfold tight, bound.
  destruct (in_function s); cbn; split; intros y; rewrite ?in_app_iff, <- ?in_rev; tauto.
Qed.

Lemma tight_bind fa ba t s s1 : tight fa ba s s1 -> tight fa (ba ++ t) s (fold_left add_declared t s1).
Proof. intros H. rewrite <- (app_nil_r fa). exact (tight_seq _ _ _ _ _ _ _ H (tight_adds t s1)). Qed.

Lemma tight_expr : forall f e s, flat_expr f e = true -> tight (free_expr f e) [] s (fi_expr f s e).
Proof.
  induction f as [|f IH]; intros e s H; [discriminate|].
  destruct e as [x| |l|ps ds b|el tg it ifs]; try discriminate; cbn [flat_expr] in H; cbn [fi_expr free_expr].
  - apply tight_read.
  - apply tight_id.
  - (* EOp; not by tight_fold, for the reason given at step_exprs *)
    revert s. induction l as [|e r IHl]; intros s; cbn [flat_map fold_left]; [apply tight_id|].
    apply forallb_cons in H as [He Hr].
    exact (tight_seq _ [] _ [] _ _ _ (IH e s He) (IHl Hr _)).
Qed.

Lemma tight_stmts : forall f l s, flat_stmts f l = true -> tight (free_stmts f l) (binds f l) s (fold_left (fi_stmt f) l s).
Proof.
  induction f as [|f IH]; [discriminate|]. cbn [flat_stmts free_stmts binds]. apply tight_fold.
  intros [e|t e|t it b o|t b o|n|name ps ds body|b ty n h] s H; try discriminate; cbn [fi_stmt].
  - apply tight_expr, H.
  - apply (tight_bind _ []), tight_expr, H.
  - apply andb_true_iff in H as [[Hi Hb]%andb_true_iff Ho].
    eapply tight_seq; [apply (tight_bind _ []), tight_expr, Hi|]. eapply tight_seq; [apply IH, Hb|apply IH, Ho].
  - apply andb_true_iff in H as [[Ht Hb]%andb_true_iff Ho].
    eapply (tight_seq _ []); [apply tight_expr, Ht|]. eapply tight_seq; [apply IH, Hb|apply IH, Ho].
  - apply tight_adds.
  - (* the states in between are read off the end state, so the later step is done first *)
    apply andb_true_iff in H as [[Hb Hty]%andb_true_iff Hh].
    eapply tight_seq; [apply IH, Hb|]. eapply (tight_seq []); [|eapply (tight_seq _ []); [|apply IH, Hh]].
    2: destruct ty as [t|]; [apply tight_expr, Hty|apply tight_id].
    destruct n as [n0|]; [apply (tight_adds [n0])|apply tight_id].
Qed.

(* On code without nested scopes: every name the code needs from the template's namespace is
   demanded, every name it binds is declared, and nothing is demanded that the code does not read *)
Theorem scope_exact_without_nested_scopes n code :
  flat_stmts n code = true ->
  (forall x, In x (needs_f n code) -> In x (snd (find_identifiers_f n code))) /\
  (forall x, In x (fst (find_identifiers_f n code)) <-> In x (binds n code)) /\
  (forall x, In x (snd (find_identifiers_f n code)) -> In x (free_stmts n code)).
Proof.
  intros H. destruct (tight_stmts n code f0 H) as (B & U). destruct (step_stmts n code f0) as (I & _).
  unfold bound in B. rewrite I in B. cbn [in_function declared undeclared f0 In] in B, U.
  assert (D : forall x, In x (fst (find_identifiers_f n code)) <-> In x (binds n code)) by (intros x; rewrite (B x); tauto).
  split; [|split; [exact D|]].
  - (* a needed name is demanded or declared; declared names are bound, needed ones are not *)
    intros x Hx. destruct (needed_names_demanded_or_declared n code x Hx) as [Hu|Hd]; [exact Hu|].
    apply D in Hd. apply minus_In in Hx. tauto.
  - intros x Hx. apply U in Hx. tauto.
Qed.

(* ... but not in general.  A local of a nested function that is read before the function assigns
   it is demanded from the context although the code binds it itself (flow-sensitive locals,
   known finding C19-F2) *)
Theorem no_spurious_demand_refuted :
  exists code x, In x (snd (find_identifiers code)) /\ ~ In x (fst (find_identifiers code)) /\ ~ In x (needs_from_namespace code).
Proof.
  exists [SDef 1 {| p_pos := []; p_star := None; p_kwonly := []; p_dstar := None |} [] [SExpr (EName 2); SAssign [2] EConst]], 2.
  vm_compute. split; [left; reflexivity|]. split; [intros [H|[]]; discriminate|tauto].
Qed.

(* ... and the target of a comprehension at block level is declared as if the block bound it, before
   the iterable is read: a name the block needs is then not obtained from the namespace (the
   behaviour test_ast.test_locate_identifiers_9 pins; known finding C19-F2) *)
Theorem needed_names_demanded_refuted :
  exists code x, In x (needs_from_namespace code) /\ ~ In x (snd (find_identifiers code)).
Proof.
  exists [SExpr (EComp [EConst] [4] (EName 4) [])], 4.
  vm_compute. split; [left; reflexivity|tauto].
Qed.

(* the inputs on which the defects repaired in 106ecee and 611809b showed: parameters of every kind are
   local, defaults are read outside, the element of a comprehension inside a function is read *)
Example repaired_scope_cases :
  find_identifiers [SAssign [1] (ELambda {| p_pos := [2]; p_star := Some 3; p_kwonly := [5]; p_dstar := Some 6 |} [EName 4]
                                   (EOp [EName 2; EName 3; EName 5; EName 6]))] = ([1], [4]) /\
  find_identifiers [SDef 1 {| p_pos := []; p_star := None; p_kwonly := []; p_dstar := None |} []
                      [SExpr (EComp [EName 7; EName 8] [8] (EName 9) [EName 10])]] = ([1], [7; 10; 9]).
Proof. vm_compute. split; reflexivity. Qed.
